(* LoadPerm.v — the loader mirror does not depend on the order in which a model is written (C10):
   if the atomic insertions two item lists perform are a permutation of each other - blocks
   permuted, entries permuted inside a states / parameters block, lines permuted inside an
   expressions block - and the first loads, then the second loads too, to an equivalent model
   (the same states, parameters, intermediates and derivatives up to the order of the lists).
   Together with Perm.v (the order, the slot layout and the generated rhs, monitor_values and Euler functions are
   invariant under ode_equiv when no name has two assignments, and none has in an accepted model:
   [load_unique_assign_names]) this is the statement-order independence of the mirror ([permuted_text_same_code]).

   The idea: the collecting stage is a run of atomic insertions ([run_ops], [transform_run]) that splits into one
   run per component ([run_ops_proj]), in which states, parameters and assignments go their own ways
   ([run_comp_spec]).  So it succeeds exactly if no component is given two different assignments with one key, and
   then every component holds exactly what was inserted into it ([run_ops_char]): both depend on the set of
   insertions only, and so do the four tests, which look at membership ([accepted_equiv]).  Hence [load_set], of
   which the permutation statements are instances and which SaveLoad.v uses as it stands. *)
From GX Require Import Base Expr Ode Codegen Load LoadSound Perm.
From Coq Require Import Permutation.

Lemma set_eqb_spec a b : set_eqb a b = true <-> (forall x, In x a <-> In x b).
Proof.
  unfold set_eqb. eapply iff_trans; [apply andb_iff; apply forallb_mem|].
  split; [intros [H1 H2] x; split; [apply H1|apply H2]|intros H; split; intros x Hx; apply H, Hx].
Qed.

Definition same_key (a b : assign) : Prop := assign_key_eqb a b = true.

Lemma same_key_spec a b :
  same_key a b <->
  (((a_name a = a_name b /\ (forall x, In x (vars (a_expr a)) <-> In x (vars (a_expr b))))
    /\ a_comps a = a_comps b) /\ a_unit a = a_unit b) /\ a_comment a = a_comment b.
Proof. apply fields_eqb, set_eqb_spec. Qed.

Lemma same_key_refl a : same_key a a.
Proof. apply same_key_spec. repeat split; auto. Qed.
Lemma same_key_sym a b : same_key a b -> same_key b a.
Proof.
  intros H. apply same_key_spec in H. destruct H as [[[[H1 H2] H3] H4] H5].
  apply same_key_spec. repeat split; auto; intros; apply H2; assumption.
Qed.
Lemma same_key_trans a b c : same_key a b -> same_key b c -> same_key a c.
Proof.
  intros H G. apply same_key_spec in H, G. destruct H as [[[[H1 H2] H3] H4] H5], G as [[[[G1 G2] G3] G4] G5].
  apply same_key_spec. repeat split; try congruence; intros Hx; [apply G2, H2, Hx|apply H2, G2, Hx].
Qed.

Lemma add_decl_In l d x : In x (add_decl l d) <-> In x l \/ x = d.
Proof. exact (add_by_In decl_eqb decl_eqb_eq l d x). Qed.

Lemma add_decl_NoDup l d : NoDup l -> NoDup (add_decl l d).
Proof. exact (add_by_NoDup decl_eqb decl_eqb_eq l d). Qed.

Lemma fold_add_decl_NoDup ds : forall l, NoDup l -> NoDup (fold_left add_decl ds l).
Proof. induction ds as [|d ds IH]; intros l H; simpl; [exact H|]. apply IH, add_decl_NoDup, H. Qed.

Fixpoint fold_assign (l : list assign) (as_ : list assign) : result (list assign) :=
  match as_ with
  | [] => Ok l
  | a :: as' => bind (add_assign l a) (fun l' => fold_assign l' as')
  end.

Definition keyed (l : list assign) : Prop :=
  NoDup l /\ forall a b, In a l -> In b l -> same_key a b -> a = b.

Definition conflict_free (l : list assign) : Prop :=
  forall a b, In a l -> In b l -> same_key a b -> a = b.

Lemma conflict_free_incl l l' : incl l l' -> conflict_free l' -> conflict_free l.
Proof. intros H C a b Ha Hb. apply C; apply H; assumption. Qed.

Lemma keyed_nil : keyed [].
Proof. split; [constructor|intros a b []]. Qed.

Lemma add_assign_spec l a :
  keyed l ->
  match add_assign l a with
  | Ok l' => keyed l' /\ forall x, In x l' <-> In x l \/ x = a
  | Err _ => ~ conflict_free (a :: l)
  end.
Proof.
  intros [Hnd Hk]. unfold add_assign. destruct (find (assign_key_eqb a) l) as [b|] eqn:E.
  - apply find_some in E. destruct E as [Hb Hab]. destruct (assign_eqb a b) eqn:Eq.
    + apply assign_eqb_eq in Eq. subst b. split; [split; assumption|]. intros x. split; [auto|intros [H| ->]; assumption].
    + intros C. rewrite (C a b (or_introl eq_refl) (or_intror Hb) Hab), (proj2 (assign_eqb_eq b b) eq_refl) in Eq. discriminate.
  - assert (Hn : forall b, In b l -> ~ same_key a b).
    { intros b Hb Hab. red in Hab. rewrite (find_none _ _ E b Hb) in Hab. discriminate. }
    split; [split|].
    + apply (Permutation_NoDup (Permutation_cons_append l a)). constructor; [|exact Hnd]. intros Ha. exact (Hn a Ha (same_key_refl a)).
    + intros x y Hx Hy Hxy. apply in_app_or in Hx, Hy. destruct Hx as [Hx|[<-|[]]], Hy as [Hy|[<-|[]]];
        [exact (Hk x y Hx Hy Hxy)|destruct (Hn x Hx (same_key_sym _ _ Hxy))|destruct (Hn y Hy Hxy)|reflexivity].
    + intros x. split; [intros H; apply in_app_or in H; destruct H as [H|[H|[]]]; auto|intros [H| ->]; apply in_or_app; simpl; auto].
Qed.

Lemma fold_assign_match as_ : forall l,
  keyed l ->
  match fold_assign l as_ with
  | Ok l' => keyed l' /\ forall x, In x l' <-> In x (as_ ++ l)
  | Err _ => ~ conflict_free (as_ ++ l)
  end.
Proof.
  induction as_ as [|a as_ IH]; intros l Hk; simpl.
  - split; [exact Hk|reflexivity].
  - pose proof (add_assign_spec l a Hk) as Ha. destruct (add_assign l a) as [l1|]; simpl.
    + destruct Ha as (Hk1 & M1). specialize (IH l1 Hk1).
      assert (Hset : forall x, In x (as_ ++ l1) <-> In x (a :: as_ ++ l)).
      { intros x. simpl. rewrite !in_app_iff, M1.
        split; [intros [H|[H| ->]]; auto|intros [<-|[H|H]]; auto]. }
      destruct (fold_assign l1 as_) as [l2|].
      * destruct IH as (Hk2 & M2). split; [exact Hk2|]. intros x. eapply iff_trans; [apply M2|apply Hset].
      * intros C. apply IH, (conflict_free_incl _ (a :: as_ ++ l)); [intros x; apply Hset|exact C].
    + intros C. apply Ha, (conflict_free_incl _ (a :: as_ ++ l)); [|exact C].
      intros x [<-|Hx]; [left; reflexivity|right; apply in_or_app; right; exact Hx].
Qed.

Lemma fold_assign_spec as_ : forall l,
  keyed l ->
  (conflict_free (as_ ++ l) ->
     exists l', fold_assign l as_ = Ok l' /\ keyed l' /\ forall x, In x l' <-> In x l \/ In x as_)
  /\ (forall l', fold_assign l as_ = Ok l' -> conflict_free (as_ ++ l)).
Proof.
  intros l Hk. pose proof (fold_assign_match as_ l Hk) as F. destruct (fold_assign l as_) as [l'|e].
  - destruct F as (Hk' & M). split.
    + intros _. exists l'. split; [reflexivity|]. split; [exact Hk'|]. intros x. rewrite M, in_app_iff. apply or_comm.
    + intros _ _. apply (conflict_free_incl _ l'); [intros x; apply M|exact (proj2 Hk')].
  - split; [intros C; contradiction|discriminate].
Qed.

(* an atomic insertion: one turn of the inner loop of TreeToODE.ode (transformer.py: for component in atom.components:
   ... group.add(atom)); [ops] lists them in the order in which they happen *)
Inductive op := OS (d : decl) | OP (d : decl) | OA (a : assign).

Definition apply_op (o : op) (c : comp) : result comp :=
  match o with OS d => add_state d c | OP d => add_param d c | OA a => add_assignment a c end.

Definition ops_of_item (it : item) : list (string * op) :=
  match it with
  | IStates comps es => flat_map (fun e => map (fun n => (n, OS (decl_of comps e))) comps) es
  | IParams comps es => flat_map (fun e => map (fun n => (n, OP (decl_of comps e))) comps) es
  | IExprs comps ls => flat_map (fun l => map (fun n => (n, OA (assign_of comps l))) comps) ls
  | IComment _ => []
  end.
Definition ops (items : list item) : list (string * op) := flat_map ops_of_item items.

Fixpoint run_ops (cs : list comp) (l : list (string * op)) : result (list comp) :=
  match l with
  | [] => Ok cs
  | (n, o) :: l' => bind (upd_comp cs n (apply_op o)) (fun cs' => run_ops cs' l')
  end.

Lemma run_ops_app l1 : forall cs l2,
  run_ops cs (l1 ++ l2) = bind (run_ops cs l1) (fun cs' => run_ops cs' l2).
Proof.
  induction l1 as [|[n o] l1 IH]; intros cs l2; simpl; [reflexivity|].
  destruct (upd_comp cs n (apply_op o)); simpl; [apply IH|reflexivity].
Qed.

Lemma add_to_comps_run o comps : forall cs,
  add_to_comps cs comps (apply_op o) = run_ops cs (map (fun n => (n, o)) comps).
Proof.
  induction comps as [|n comps IH]; intros cs; simpl; [reflexivity|].
  destruct (upd_comp cs n (apply_op o)); simpl; [apply IH|reflexivity].
Qed.

Lemma add_atoms_run {A} (mk : A -> op) comps (l : list A) : forall cs,
  add_atoms cs comps (fun x => apply_op (mk x)) l
  = run_ops cs (flat_map (fun x => map (fun n => (n, mk x)) comps) l).
Proof.
  induction l as [|x l IH]; intros cs; simpl; [reflexivity|].
  rewrite run_ops_app, add_to_comps_run. destruct (run_ops cs _); simpl; [apply IH|reflexivity].
Qed.

Lemma add_item_run cs it : add_item cs it = run_ops cs (ops_of_item it).
Proof.
  destruct it as [comps es|comps es|comps ls|s]; simpl.
  - apply (add_atoms_run (fun e => OS (decl_of comps e))).
  - apply (add_atoms_run (fun e => OP (decl_of comps e))).
  - apply (add_atoms_run (fun l => OA (assign_of comps l))).
  - reflexivity.
Qed.

Lemma transform_run items : forall cs, transform cs items = run_ops cs (ops items).
Proof.
  induction items as [|it items IH]; intros cs; simpl; [reflexivity|].
  unfold ops. simpl. rewrite run_ops_app, add_item_run. destruct (run_ops cs (ops_of_item it)); simpl; [apply IH|reflexivity].
Qed.

Definition getc (cs : list comp) (n : string) : comp :=
  match find (fun c => String.eqb (c_name c) n) cs with Some c => c | None => empty_comp n end.
Definition names (cs : list comp) : list string := map c_name cs.

Lemma getc_cons c cs m : getc (c :: cs) m = if String.eqb (c_name c) m then c else getc cs m.
Proof. unfold getc. simpl. destruct (String.eqb (c_name c) m); reflexivity. Qed.

Lemma getc_name cs n : c_name (getc cs n) = n.
Proof.
  induction cs as [|c cs IH]; [reflexivity|]. rewrite getc_cons.
  destruct (String.eqb_spec (c_name c) n); assumption.
Qed.

Lemma getc_listed cs n : In n (names cs) -> In (getc cs n) cs.
Proof.
  induction cs as [|c cs IH]; simpl; [intros []|]. rewrite getc_cons.
  destruct (String.eqb_spec (c_name c) n) as [E|NE]; [left; reflexivity|]. intros [H|H]; [contradiction|right; apply IH, H].
Qed.

Lemma getc_own_name cs c : NoDup (names cs) -> In c cs -> getc cs (c_name c) = c.
Proof.
  intros Hnd Hin. apply (NoDup_map_inj c_name cs); [exact Hnd|apply getc_listed, in_map, Hin|exact Hin|apply getc_name].
Qed.

Lemma apply_op_name o c c' : apply_op o c = Ok c' -> c_name c' = c_name c.
Proof.
  destruct o; simpl; unfold add_state, add_param, add_assignment.
  - intros [= <-]. reflexivity.
  - intros [= <-]. reflexivity.
  - destruct (add_assign (c_assigns c) a); simpl; [intros [= <-]; reflexivity|discriminate].
Qed.

Section UpdComp.
  Variable f : comp -> result comp.
  Hypothesis Hf : forall c c', f c = Ok c' -> c_name c' = c_name c.
  Variable n : string.

  Lemma upd_comp_char : forall cs,
    match upd_comp cs n f with
    | Ok cs' => exists c', f (getc cs n) = Ok c'
                  /\ (forall m, getc cs' m = if String.eqb n m then c' else getc cs m)
                  /\ names cs' = add_by String.eqb (names cs) n
    | Err e => f (getc cs n) = Err e
    end.
  Proof.
    unfold add_by, names. induction cs as [|c cs IH]; simpl.
    - change (getc [] n) with (empty_comp n). destruct (f (empty_comp n)) as [c'|e] eqn:E; simpl; [|reflexivity].
      exists c'. rewrite (Hf _ _ E). split; [reflexivity|]. split; [|reflexivity].
      intros m. rewrite getc_cons, (Hf _ _ E). reflexivity.
    - rewrite getc_cons, (String.eqb_sym n). destruct (String.eqb_spec (c_name c) n) as [En|Hne]; simpl.
      + destruct (f c) as [c'|e] eqn:E; simpl; [|reflexivity].
        exists c'. rewrite (Hf _ _ E). split; [reflexivity|]. split; [|reflexivity].
        intros m. rewrite !getc_cons, (Hf _ _ E), En. destruct (String.eqb n m); reflexivity.
      + destruct (upd_comp cs n f) as [cs'|e]; simpl; [|exact IH]. destruct IH as (c' & E & Hget & Hnames).
        exists c'. split; [exact E|]. split.
        * intros m. rewrite !getc_cons, Hget. destruct (String.eqb_spec (c_name c) m) as [Em|]; [|reflexivity].
          destruct (String.eqb_spec n m); [congruence|reflexivity].
        * rewrite Hnames. destruct (existsb (String.eqb n) (map c_name cs)); reflexivity.
  Qed.
End UpdComp.

Fixpoint run_comp (c : comp) (l : list op) : result comp :=
  match l with
  | [] => Ok c
  | o :: l' => bind (apply_op o c) (fun c' => run_comp c' l')
  end.

Definition proj (n : string) (l : list (string * op)) : list op :=
  map snd (filter (fun p => String.eqb (fst p) n) l).

Lemma run_ops_proj l : forall cs,
  match run_ops cs l with
  | Ok cs' => (forall n, run_comp (getc cs n) (proj n l) = Ok (getc cs' n))
              /\ (forall m, In m (names cs') <-> In m (names cs) \/ In m (map fst l))
              /\ (NoDup (names cs) -> NoDup (names cs'))
  | Err e => exists n e', run_comp (getc cs n) (proj n l) = Err e'
  end.
Proof.
  induction l as [|[n o] l IH]; intros cs; simpl.
  - split; [reflexivity|]. split; [intros m; tauto|auto].
  - pose proof (upd_comp_char _ (apply_op_name o) n cs) as Hupd.
    destruct (upd_comp cs n (apply_op o)) as [cs1|e]; simpl.
    + destruct Hupd as (c' & Hupd & Hget & Hnames). specialize (IH cs1).
      (* the step changes the component n, by o, and no other *)
      assert (Hstep : forall m, run_comp (getc cs m) (proj m ((n, o) :: l)) = run_comp (getc cs1 m) (proj m l)).
      { intros m. unfold proj. simpl. rewrite Hget.
        destruct (String.eqb_spec n m) as [<-|]; simpl; [rewrite Hupd|]; reflexivity. }
      destruct (run_ops cs1 l) as [cs2|e2].
      * destruct IH as (I1 & I2 & I3). rewrite Hnames in I2, I3. split; [intros m; rewrite Hstep; apply I1|]. split.
        -- intros m. rewrite I2, (add_by_In _ String.eqb_eq). simpl.
           split; [intros [[H|H]|H]; auto|intros [H|[H|H]]; auto].
        -- intros Hnd. apply I3, (add_by_NoDup _ String.eqb_eq), Hnd.
      * destruct IH as (m & e' & He). exists m, e'. rewrite Hstep. exact He.
    + exists n, e. unfold proj. simpl. rewrite String.eqb_refl. simpl. rewrite Hupd. reflexivity.
Qed.

(* the three fields evolve independently *)
Definition sts (l : list op) : list decl := flat_map (fun o => match o with OS d => [d] | _ => [] end) l.
Definition prs (l : list op) : list decl := flat_map (fun o => match o with OP d => [d] | _ => [] end) l.
Definition asg (l : list op) : list assign := flat_map (fun o => match o with OA a => [a] | _ => [] end) l.

Lemma run_comp_spec l : forall c,
  run_comp c l =
  match fold_assign (c_assigns c) (asg l) with
  | Ok la => Ok {| c_name := c_name c; c_states := fold_left add_decl (sts l) (c_states c);
                  c_params := fold_left add_decl (prs l) (c_params c); c_assigns := la |}
  | Err e => Err e
  end.
Proof.
  induction l as [|o l IH]; intros c; simpl.
  - destruct c; reflexivity.
  - destruct o as [d|d|a]; simpl.
    + rewrite IH. reflexivity.
    + rewrite IH. reflexivity.
    + unfold add_assignment. destruct (add_assign (c_assigns c) a) as [la|e]; simpl; [|reflexivity].
      rewrite IH. reflexivity.
Qed.

Definition op_among (o : op) (ss ps : list decl) (as_ : list assign) : Prop :=
  match o with OS d => In d ss | OP d => In d ps | OA a => In a as_ end.
Definition op_in (o : op) (c : comp) : Prop := op_among o (c_states c) (c_params c) (c_assigns c).

Lemma in_fields l o : op_among o (sts l) (prs l) (asg l) <-> In o l.
Proof.
  (* [sel] selects the ops built by the constructor [mk] *)
  assert (Hsel : forall A (sel : op -> list A) mk, (forall o x, In x (sel o) <-> o = mk x) ->
                 forall x, In x (flat_map sel l) <-> In (mk x) l).
  { intros A sel mk Hs x. split; intros H.
    - apply in_flat_map in H. destruct H as (o' & Ho & H). apply Hs in H. subst o'. exact Ho.
    - apply in_flat_map. exists (mk x). split; [exact H|apply Hs; reflexivity]. }
  destruct o; [apply (Hsel _ _ OS)|apply (Hsel _ _ OP)|apply (Hsel _ _ OA)]; intros o' x; destruct o'; simpl.
  (* an op of another kind is not selected *)
  all: try (split; [intros []|discriminate]).
  (* an op of the kind is selected, alone *)
  all: split; [intros [->|[]]; reflexivity|intros [= ->]; left; reflexivity].
Qed.

Definition holds (p : list op) (c : comp) : Prop :=
  NoDup (c_states c) /\ NoDup (c_params c) /\ NoDup (c_assigns c) /\ forall o, op_in o c <-> In o p.

Lemma run_comp_char n p :
  match run_comp (empty_comp n) p with
  | Ok c => holds p c /\ conflict_free (asg p)
  | Err _ => ~ conflict_free (asg p)
  end.
Proof.
  rewrite run_comp_spec. simpl. pose proof (fold_assign_match (asg p) [] keyed_nil) as F.
  rewrite app_nil_r in F. destruct (fold_assign [] (asg p)) as [la|]; [|exact F].
  destruct F as (Hk & M).
  split; [|apply (conflict_free_incl _ la); [intros x; apply M|exact (proj2 Hk)]].
  split; [apply fold_add_decl_NoDup; constructor|]. split; [apply fold_add_decl_NoDup; constructor|].
  split; [apply Hk|]. intros o. eapply iff_trans; [|apply in_fields].
  assert (Hd : forall ds x, In x (fold_left add_decl ds []) <-> In x ds).
  { intros ds x. eapply iff_trans; [apply (fold_left_obs add_decl (fun l x => In x l) (fun d x => x = d) add_decl_In)|].
    split; [intros [[]|(d & H & ->)]; exact H|intros H; right; exists x; auto]. }
  destruct o; simpl; [apply Hd|apply Hd|apply M].
Qed.

Definition collected (l : list (string * op)) (cs : list comp) : Prop :=
  NoDup (names cs) /\ (forall m, In m (names cs) <-> In m (map fst l))
  /\ forall n, holds (proj n l) (getc cs n).

Lemma proj_In n l o : In o (proj n l) <-> In (n, o) l.
Proof.
  unfold proj. rewrite in_map_iff. split.
  - intros [[m o'] [E H]]. simpl in E. subst o'. apply filter_In in H. destruct H as [H Hm]. simpl in Hm.
    apply String.eqb_eq in Hm. subst m. exact H.
  - intros H. exists (n, o). split; [reflexivity|]. apply filter_In. split; [exact H|]. simpl. apply String.eqb_refl.
Qed.

Definition same_set {A} (l l' : list A) : Prop := forall x, In x l <-> In x l'.

(* the condition under which collecting succeeds (run_ops_char): a property of the set of insertions *)
Definition consistent (l : list (string * op)) : Prop :=
  forall n a b, In (n, OA a) l -> In (n, OA b) l -> same_key a b -> a = b.

Lemma consistent_proj l : consistent l <-> forall n, conflict_free (asg (proj n l)).
Proof.
  unfold consistent, conflict_free. split; intros H n a b Ha Hb.
  - apply (H n); apply proj_In, (in_fields _ (OA _)); assumption.
  - apply (H n); apply (in_fields _ (OA _)), proj_In; assumption.
Qed.

Theorem run_ops_char l :
  match run_ops [] l with
  | Ok cs => collected l cs /\ consistent l
  | Err _ => ~ consistent l
  end.
Proof.
  pose proof (run_ops_proj l []) as Hrun. destruct (run_ops [] l) as [cs|e].
  - destruct Hrun as (Hproj & Hnames & Hnd).
    assert (Hcomp : forall n, holds (proj n l) (getc cs n) /\ conflict_free (asg (proj n l))).
    { intros n. generalize (run_comp_char n (proj n l)). change (empty_comp n) with (getc [] n). rewrite (Hproj n). exact id. }
    split; [|apply consistent_proj; intros n; apply Hcomp]. split; [apply Hnd; constructor|]. split; [|intros n; apply Hcomp].
    intros m. eapply iff_trans; [apply Hnames|]. split; [intros [[]|H]; exact H|auto].
  - destruct Hrun as (n & e' & Hrun). intros C. pose proof (run_comp_char n (proj n l)) as Hcomp.
    change (getc [] n) with (empty_comp n) in Hrun. rewrite Hrun in Hcomp. exact (Hcomp (proj1 (consistent_proj l) C n)).
Qed.

Definition comp_perm (c c' : comp) : Prop :=
  c_name c = c_name c' /\ Permutation (c_states c) (c_states c')
  /\ Permutation (c_params c) (c_params c') /\ Permutation (c_assigns c) (c_assigns c').

Definition comps_equiv (cs cs' : list comp) : Prop :=
  NoDup (names cs) /\ NoDup (names cs')
  /\ (forall n, In n (names cs) <-> In n (names cs'))
  /\ forall n, comp_perm (getc cs n) (getc cs' n).

Lemma collected_equiv l1 l2 cs1 cs2 :
  same_set l1 l2 -> collected l1 cs1 -> collected l2 cs2 -> comps_equiv cs1 cs2.
Proof.
  intros HP (Hnd1 & Hn1 & F1) (Hnd2 & Hn2 & F2). split; [exact Hnd1|]. split; [exact Hnd2|]. split.
  - intros n. eapply iff_trans; [apply Hn1|]. eapply iff_trans; [|symmetry; apply Hn2].
    split; apply incl_map; intros x; apply HP.
  - intros n. destruct (F1 n) as (Hs1 & Hp1 & Ha1 & M1), (F2 n) as (Hs2 & Hp2 & Ha2 & M2).
    split; [rewrite !getc_name; reflexivity|].
    assert (M : forall o, op_in o (getc cs1 n) <-> op_in o (getc cs2 n)).
    { intros o. rewrite M1, M2, !proj_In. apply HP. }
    repeat split; apply NoDup_Permutation; try assumption; intros x; [apply (M (OS x))|apply (M (OP x))|apply (M (OA x))].
Qed.

Theorem run_ops_set l1 l2 cs1 :
  same_set l1 l2 -> run_ops [] l1 = Ok cs1 ->
  exists cs2, run_ops [] l2 = Ok cs2 /\ comps_equiv cs1 cs2.
Proof.
  intros HP H1. pose proof (run_ops_char l1) as Hrun1. pose proof (run_ops_char l2) as Hrun2. rewrite H1 in Hrun1.
  destruct Hrun1 as [Hcoll1 Hcons1], (run_ops [] l2) as [cs2|e].
  - exists cs2. split; [reflexivity|exact (collected_equiv _ _ _ _ HP Hcoll1 (proj1 Hrun2))].
  - destruct Hrun2. intros n a b Ha Hb. apply (Hcons1 n); apply HP; assumption.
Qed.

Lemma perm_same_set {A} (l l' : list A) : Permutation l l' -> same_set l l'.
Proof. intros H x. apply (Permutation_in' eq_refl H). Qed.

Theorem run_ops_perm l1 l2 cs1 :
  Permutation l1 l2 -> run_ops [] l1 = Ok cs1 ->
  exists cs2, run_ops [] l2 = Ok cs2 /\ comps_equiv cs1 cs2.
Proof. intros HP. apply run_ops_set, perm_same_set, HP. Qed.

Lemma proj_perm n l l' : Permutation l l' -> Permutation (proj n l) (proj n l').
Proof. intros H. unfold proj. apply Permutation_map, filter_perm, H. Qed.

Lemma flat_map_In_perm {A B} (f : A -> list B) l l' x :
  Permutation l l' -> In x (flat_map f l) -> In x (flat_map f l').
Proof. intros HP. apply Permutation_in, Permutation_flat_map, HP. Qed.

Definition op_in_ode (o : op) (m : ode) : Prop := op_among o (o_states m) (o_params m) (assigns m).

Lemma ode_of_op cs o : op_in_ode o (ode_of cs) <-> exists c, In c cs /\ op_in o c.
Proof.
  destruct o as [d|d|a]; simpl; [eapply iff_trans; [apply dedup_decl_In|apply in_flat_map]..|].
  eapply iff_trans; [apply in_app_iff|]. unfold comp_inters, comp_derivs. split.
  - intros [H|H]; apply dedup_assign_In, in_flat_map in H; destruct H as (c & Hc & H); exists c;
      apply filter_In in H; exact (conj Hc (proj1 H)).
  - intros (c & Hc & H). destruct (is_deriv a) eqn:E; [right|left]; apply dedup_assign_In, in_flat_map; exists c;
      (split; [exact Hc|]); apply filter_In; rewrite E; auto.
Qed.

Lemma equiv_partner cs cs' c' :
  comps_equiv cs cs' -> In c' cs' -> exists c, In c cs /\ comp_perm c c'.
Proof.
  intros (Hnd & Hnd' & Hn & Hc) Hin. exists (getc cs (c_name c')). split.
  - apply getc_listed. apply Hn. apply in_map. exact Hin.
  - specialize (Hc (c_name c')). rewrite (getc_own_name cs' c' Hnd' Hin) in Hc. exact Hc.
Qed.

Lemma comp_perm_sym c c' : comp_perm c c' -> comp_perm c' c.
Proof.
  intros (Hn & Hs & Hp & Ha). split; [symmetry; exact Hn|]. split; [|split]; apply Permutation_sym; assumption.
Qed.

Lemma comps_equiv_sym cs cs' : comps_equiv cs cs' -> comps_equiv cs' cs.
Proof.
  intros (Hnd & Hnd' & Hn & Hc). split; [exact Hnd'|]. split; [exact Hnd|].
  split; [intros n; symmetry; apply Hn|intros n; apply comp_perm_sym, Hc].
Qed.

Definition perm_field {A} (f : comp -> list A) : Prop := forall c c', comp_perm c c' -> incl (f c) (f c').

Lemma comp_perm_fields :
  perm_field c_states /\ perm_field c_params /\ perm_field c_assigns
  /\ perm_field comp_inters /\ perm_field comp_derivs /\ perm_field comp_atoms.
Proof.
  (* each of them is permuted *)
  assert (Hperm : forall A (f : comp -> list A), (forall c c', comp_perm c c' -> Permutation (f c) (f c')) -> perm_field f).
  { intros A f Hf c c' H y. apply Permutation_in, Hf, H. }
  repeat split; apply Hperm; intros c c' (_ & Hs & Hp & Ha); try assumption; try (apply filter_perm, Ha).
  unfold comp_atoms. repeat apply Permutation_app; apply Permutation_map; try apply filter_perm; assumption.
Qed.

Lemma field_equiv cs cs' :
  comps_equiv cs cs' -> forall A (f : comp -> list A), perm_field f -> same_set (flat_map f cs) (flat_map f cs').
Proof.
  intros HE A f Hf.
  assert (I : forall cs cs', comps_equiv cs cs' -> incl (flat_map f cs') (flat_map f cs)).
  { intros ds ds' Hds x H. apply in_flat_map in H. destruct H as [c' [Hc' Hx]].
    destruct (equiv_partner ds ds' c' Hds Hc') as [c [Hc Hp]]. apply in_flat_map. exists c.
    split; [exact Hc|exact (Hf c' c (comp_perm_sym _ _ Hp) x Hx)]. }
  intros x. split; [apply I, comps_equiv_sym, HE|apply I, HE].
Qed.

Lemma has_state_perm c c' s : comp_perm c c' -> has_state c s = true -> has_state c' s = true.
Proof.
  intros (_ & Hs & _) H. unfold has_state. rewrite <- (existsb_perm _ _ _ Hs). exact H.
Qed.

(* what [first_dup l = None] says (LoadSound.first_dup_None) *)
Definition name_functional (l : list atom) : Prop :=
  forall x y, In x l -> In y l -> atom_name x = atom_name y -> x = y.

(* the atoms of the model, one list: they are atoms of the components, so accepted models have one atom per name *)
Definition atoms_of (o : ode) : list atom :=
  map AState (o_states o) ++ map AParam (o_params o) ++ map AInter (o_inters o) ++ map ADeriv (o_derivs o).

Lemma atoms_of_names o : map atom_name (atoms_of o) = all_names o.
Proof. unfold atoms_of, all_names, assigns. rewrite !map_app, !map_map. reflexivity. Qed.

Definition atom_among (x : atom) (ss ps : list decl) (is_ ds : list assign) : Prop :=
  match x with AState d => In d ss | AParam d => In d ps | AInter a => In a is_ | ADeriv a => In a ds end.

Lemma in_atoms ss ps is_ ds x :
  In x (map AState ss ++ map AParam ps ++ map AInter is_ ++ map ADeriv ds) <-> atom_among x ss ps is_ ds.
Proof.
  split.
  - intros H. repeat (apply in_app_or in H; destruct H as [H|H]); apply in_map_iff in H; destruct H as (y & <- & H); exact H.
  - intros H. destruct x; [apply in_or_app; right| |do 2 (apply in_or_app; right)|do 3 (apply in_or_app; right)];
      try (apply in_or_app; left); apply in_map, H.
Qed.

Lemma in_comp_atoms c x :
  In x (comp_atoms c) <-> atom_among x (c_states c) (c_params c) (comp_inters c) (comp_derivs c).
Proof. eapply iff_trans; [|apply in_atoms]. unfold comp_atoms. split; apply Permutation_in, Permutation_app_swap_app. Qed.

Lemma in_all_atoms cs x :
  In x (all_atoms cs) <->
  atom_among x (flat_map c_states cs) (flat_map c_params cs) (flat_map comp_inters cs) (flat_map comp_derivs cs).
Proof.
  induction cs as [|c cs IH]; simpl; [destruct x; reflexivity|].
  eapply iff_trans; [apply (in_app_iff2 _ _ _ _ _ (in_comp_atoms c x) IH)|]. destruct x; symmetry; apply in_app_iff.
Qed.

Lemma atoms_of_iff cs x : In x (atoms_of (ode_of cs)) <-> In x (all_atoms cs).
Proof.
  eapply iff_trans; [apply in_atoms|]. eapply iff_trans; [|symmetry; apply in_all_atoms].
  destruct x; simpl; [apply dedup_decl_In|apply dedup_decl_In|apply dedup_assign_In|apply dedup_assign_In].
Qed.

Lemma symbols_names cs x : In x (symbols cs) <-> In x (all_names (ode_of cs)) \/ In x ["time"; "t"].
Proof.
  unfold symbols. rewrite <- atoms_of_names. apply in_app_iff2; [|reflexivity].
  split; apply incl_map; intros z; apply atoms_of_iff.
Qed.

Lemma atoms_of_NoDup cs : NoDup (atoms_of (ode_of cs)).
Proof.
  unfold atoms_of, ode_of. simpl.
  repeat (apply NoDup_app_intro);
    try (apply NoDup_map_inj_on; [intros x y _ _ [= ->]; reflexivity|]; try apply dedup_decl_NoDup; try apply dedup_assign_NoDup).
  all: intros x Hx Hy; apply in_map_iff in Hx; destruct Hx as (d & <- & _).
  - apply (in_atoms [] [] [] _) in Hy. exact Hy.
  - apply (in_atoms [] [] _ _) in Hy. exact Hy.
  - apply (in_atoms [] _ _ _) in Hy. exact Hy.
Qed.

Theorem names_unique cs : name_functional (all_atoms cs) -> NoDup (all_names (ode_of cs)).
Proof.
  intros NF. rewrite <- atoms_of_names. apply NoDup_map_inj_on; [|apply atoms_of_NoDup].
  intros x y Hx Hy. apply NF; apply atoms_of_iff; assumption.
Qed.

Definition decl_name_functional (l : list decl) : Prop :=
  forall d1 d2, In d1 l -> In d2 l -> d_name d1 = d_name d2 -> d1 = d2.

Lemma find_decl_In l d : decl_name_functional l -> In d l -> find_decl l (d_name d) = Some d.
Proof.
  intros HF H. unfold find_decl. destruct (find (fun d0 => String.eqb (d_name d0) (d_name d)) l) as [d'|] eqn:E.
  - apply find_some in E. destruct E as [E1 E2]. apply String.eqb_eq in E2. f_equal. apply HF; assumption.
  - pose proof (find_none _ _ E d H) as Hc. simpl in Hc. rewrite String.eqb_refl in Hc. discriminate.
Qed.

(* the converse of [state_has_derivative_spec] *)
Lemma state_has_derivative_intro c d a :
  decl_name_functional (c_states c) ->
  In d (c_states c) -> In a (c_assigns c) -> deriv_state (a_name a) = Some (d_name d) ->
  state_has_derivative c d = true.
Proof.
  intros HF Hd Ha E. apply existsb_exists. exists a. split; [exact Ha|]. rewrite E, String.eqb_refl.
  rewrite (find_decl_In _ d HF Hd). apply decl_eqb_eq. reflexivity.
Qed.

Lemma complete_perm c c' :
  decl_name_functional (c_states c) -> comp_perm c c' -> complete c = true -> complete c' = true.
Proof.
  intros HF (_ & Hs & _ & Ha) H. apply Permutation_sym in Hs. apply forallb_forall. intros d Hd.
  destruct (state_has_derivative_spec c d (proj1 (forallb_forall _ _) H d (Permutation_in _ Hs Hd))) as (a & Ha1 & E).
  apply (state_has_derivative_intro c' d a); [|exact Hd|apply (Permutation_in _ Ha), Ha1|exact E].
  intros d1 d2 H1 H2. apply HF; apply (Permutation_in _ Hs); assumption.
Qed.

Lemma accepted_equiv cs cs' : comps_equiv cs cs' -> accepted cs -> accepted cs'.
Proof.
  intros HE H. apply accepted_iff in H. destruct H as (H1 & H2 & H3 & H4).
  assert (At : same_set (all_atoms cs) (all_atoms cs')).
  { apply (field_equiv _ _ HE), comp_perm_fields. }
  apply accepted_iff. split; [|split; [|split]].
  - intros c' a s Hc' Ha Hs. destruct (equiv_partner _ _ _ HE Hc') as (c & Hc & Hp).
    apply (has_state_perm c c' s Hp), (H1 c a s Hc); [|exact Hs].
    destruct (comp_perm_sym _ _ Hp) as (_ & _ & _ & Hp'). apply (Permutation_in _ Hp'), Ha.
  - intros c' Hc'. destruct (equiv_partner _ _ _ HE Hc') as (c & Hc & Hp).
    (* [complete] looks a state up by its name ([find_decl]): that it finds the same state in a permuted list needs
       one state per name, which the duplicate test gives *)
    apply (complete_perm c c'); [|exact Hp|exact (H2 c Hc)]. intros d1 d2 Hd1 Hd2 Hn.
    assert (G : AState d1 = AState d2); [|injection G; auto].
    apply H3; [| |exact Hn]; apply in_all_atoms, in_flat_map; exists c; auto.
  - intros x y Hx Hy. apply H3; apply At; assumption.
  - intros a x Ha Hx. apply (incl_app_app (incl_map atom_name (fun y => proj1 (At y))) (incl_refl _)), (H4 a x).
    + apply (field_equiv _ _ HE _ c_assigns); [apply comp_perm_fields|exact Ha].
    + exact Hx.
Qed.

Theorem load_comps_set items1 items2 cs1 :
  same_set (ops items1) (ops items2) ->
  load_comps items1 = Ok cs1 ->
  exists cs2, load_comps items2 = Ok cs2 /\ comps_equiv cs1 cs2.
Proof.
  intros HP H. apply load_comps_iff in H. destruct H as [Ht Ha]. rewrite transform_run in Ht.
  destruct (run_ops_set _ _ _ HP Ht) as (cs2 & E2 & HE). exists cs2. split; [|exact HE].
  apply load_comps_iff. rewrite transform_run. split; [exact E2|exact (accepted_equiv _ _ HE Ha)].
Qed.

Theorem load_comps_perm items1 items2 cs1 :
  Permutation (ops items1) (ops items2) ->
  load_comps items1 = Ok cs1 ->
  exists cs2, load_comps items2 = Ok cs2 /\ comps_equiv cs1 cs2.
Proof. intros HP. apply load_comps_set, perm_same_set, HP. Qed.

Lemma ode_of_equiv cs cs' : comps_equiv cs cs' -> ode_equiv (ode_of cs) (ode_of cs').
Proof.
  intros HE. constructor; simpl.
  - apply (dedup_by_perm _ decl_eqb_eq), (field_equiv _ _ HE), comp_perm_fields.
  - apply (dedup_by_perm _ decl_eqb_eq), (field_equiv _ _ HE), comp_perm_fields.
  - apply (dedup_by_perm _ assign_eqb_eq), (field_equiv _ _ HE), comp_perm_fields.
  - apply (dedup_by_perm _ assign_eqb_eq), (field_equiv _ _ HE), comp_perm_fields.
Qed.

Theorem load_set items1 items2 o1 :
  same_set (ops items1) (ops items2) ->
  load items1 = Ok o1 ->
  exists o2, load items2 = Ok o2 /\ ode_equiv o1 o2.
Proof.
  intros HP H. apply load_iff in H. destruct H as (cs1 & E1 & ->).
  destruct (load_comps_set items1 items2 cs1 HP E1) as (cs2 & E2 & HE).
  exists (ode_of cs2). split; [apply load_iff; eauto|apply ode_of_equiv, HE].
Qed.

(* C10: a text whose insertions are a permutation of those of an accepted text is accepted, and
   loads to an equivalent model *)
Theorem load_perm items1 items2 o1 :
  Permutation (ops items1) (ops items2) ->
  load items1 = Ok o1 ->
  exists o2, load items2 = Ok o2 /\ ode_equiv o1 o2.
Proof. intros HP. apply load_set, perm_same_set, HP. Qed.

(* the permutations C10 names (of blocks, of the entries of a declaration block, of the lines of an expressions block)
   are permutations of the insertions *)
Lemma ops_perm_blocks items1 items2 : Permutation items1 items2 -> Permutation (ops items1) (ops items2).
Proof. apply Permutation_flat_map. Qed.

Lemma ops_perm_item pre post it it' :
  Permutation (ops_of_item it) (ops_of_item it') -> Permutation (ops (pre ++ it :: post)) (ops (pre ++ it' :: post)).
Proof. intros H. unfold ops. rewrite !flat_map_app. simpl. apply Permutation_app_head, Permutation_app_tail, H. Qed.

Lemma ops_perm_entries pre post comps es es' :
  Permutation es es' ->
  Permutation (ops (pre ++ IStates comps es :: post)) (ops (pre ++ IStates comps es' :: post))
  /\ Permutation (ops (pre ++ IParams comps es :: post)) (ops (pre ++ IParams comps es' :: post)).
Proof. intros H. split; apply ops_perm_item, Permutation_flat_map, H. Qed.

Lemma ops_perm_lines pre post comps ls ls' :
  Permutation ls ls' ->
  Permutation (ops (pre ++ IExprs comps ls :: post)) (ops (pre ++ IExprs comps ls' :: post)).
Proof. intros H. apply ops_perm_item, Permutation_flat_map, H. Qed.

Lemma load_unique_assign_names items o : load items = Ok o -> unique_assign_names o.
Proof.
  intros H. apply load_iff in H. destruct H as (cs & H & ->).
  apply load_comps_iff in H. destruct H as (_ & _ & _ & NF & _).
  pose proof (names_unique cs (proj1 (first_dup_None _) NF)) as Hnd.
  unfold all_names in Hnd. rewrite app_assoc in Hnd. apply NoDup_app_elim in Hnd. apply Hnd.
Qed.

(* C10, end to end for the mirror: the same order of statements, slot layout and generated functions *)
Theorem permuted_text_same_code items1 items2 o1 :
  Permutation (ops items1) (ops items2) ->
  load items1 = Ok o1 ->
  exists o2, load items2 = Ok o2
    /\ ode_equiv o1 o2
    /\ (forall ru, sorted_names o1 ru = sorted_names o2 ru)
    /\ sorted_states o1 = sorted_states o2
    /\ param_names o1 = param_names o2 /\ missing_names o1 = missing_names o2
    /\ (forall ru order, gen_rhs o1 ru order = gen_rhs o2 ru order)
    /\ (forall ru order, gen_monitor o1 ru order = gen_monitor o2 ru order)
    /\ (forall ru name order, gen_euler o1 ru name order = gen_euler o2 ru name order).
Proof.
  intros HP H. destruct (load_perm items1 items2 o1 HP H) as (o2 & E2 & HE).
  exists o2. split; [exact E2|]. split; [exact HE|]. exact (same_code o1 o2 HE (load_unique_assign_names items1 o1 H)).
Qed.

Print Assumptions permuted_text_same_code.
