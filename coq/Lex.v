(* Lex.v — from characters to the tokens of Parse.v: the terminals of ode.lark that occur in expressions.

     NUMBER   : INT | INT "." INT? | "." INT, each optionally followed by ("e"|"E") ("+"|"-")? INT   (common.lark)
     VARIABLE : ("a".."z"|"A".."Z"|"_") ("a".."z"|"A".."Z"|"_"|"0".."9")*
     "**" "+" "-" "*" "/" "(" ")" ","          longest match, white space (blank, \t, \n, \f, \r) ignored

   ode.lark's own number terminal is SCIENTIFIC_NUMBER: NUMBER (("E"|"e") ("+"|"-")? NUMBER)?.  The second exponent part
   is not modelled: "1e2e3" is one token to Lark, which sympify then refuses; here it is a number and a name, which the
   parser refuses ([lex_examples]).

   [lex] and [parse_string] ([lex], then Parse.parse_expr) are what the harness runs on the source text of every
   right-hand side (driver command `parsestr`): the tokens must be those of the harness's own regular expression, the
   expression the one Lark's tree stands for.  [lex_layout] (C17): whatever white space leads the text and separates
   the tokens, the tokens are the same.  [render] writes source tokens separated by one blank;
   [lex_render]: the lexer reads every rendered sequence back; [parse_rendered] (C11): characters -> tokens ->
   expression inverts printing followed by rendering, for every writable expression and every spelling of
   its numbers as an integer literal or <m>e-<k> ([stok]); [render_expr] computes one spelling, [render_expr_parse] is the round trip for it. *)
From GX Require Import Base Expr Parse.
From Coq Require Import QArith Qpower Lia ZifyBool Ascii DecimalString DecimalN.
Open Scope list_scope.
Open Scope string_scope.
Open Scope nat_scope.

Definition code (c : ascii) : N := N_of_ascii c.
Definition is_digit (c : ascii) : bool := (48 <=? code c)%N && (code c <=? 57)%N.
Definition is_id_start (c : ascii) : bool :=
  ((65 <=? code c)%N && (code c <=? 90)%N) || ((97 <=? code c)%N && (code c <=? 122)%N) || (code c =? 95)%N.
Definition is_id_char (c : ascii) : bool := is_id_start c || is_digit c.
Definition is_space (c : ascii) : bool :=
  (code c =? 32)%N || (code c =? 9)%N || (code c =? 10)%N || (code c =? 12)%N || (code c =? 13)%N.

Fixpoint span (p : ascii -> bool) (s : string) : string * string :=
  match s with
  | EmptyString => (EmptyString, EmptyString)
  | String c r => if p c then let (a, b) := span p r in (String c a, b) else (EmptyString, s)
  end.

Fixpoint digits_val (acc : N) (s : string) : N :=
  match s with
  | EmptyString => acc
  | String c r => digits_val (acc * 10 + (code c - 48))%N r
  end.

Fixpoint all_chars (p : ascii -> bool) (s : string) : bool :=
  match s with EmptyString => true | String c r => p c && all_chars p r end.

Lemma all_chars_app p a b : all_chars p (a ++ b) = all_chars p a && all_chars p b.
Proof. induction a as [|c a IH]; cbn [append all_chars]; [reflexivity|]. rewrite IH, andb_assoc. reflexivity. Qed.

Lemma all_chars_impl (p q : ascii -> bool) s : (forall c, p c = true -> q c = true) -> all_chars p s = true -> all_chars q s = true.
Proof.
  intros Hpq. induction s as [|c s IH]; cbn [all_chars]; intros H; [reflexivity|].
  apply andb_prop in H as [Hc Hs]. rewrite (Hpq c Hc), (IH Hs). reflexivity.
Qed.

Lemma span_all p s rest :
  all_chars p s = true -> match rest with String c _ => p c = false | EmptyString => True end ->
  span p (s ++ rest) = (s, rest).
Proof.
  induction s as [|c s IH]; cbn [all_chars append span]; intros Ha Hr.
  - destruct rest as [|c r]; [reflexivity|]. cbn [span]. rewrite Hr. reflexivity.
  - apply andb_prop in Ha as [Hc Hs]. rewrite Hc, (IH Hs Hr). reflexivity.
Qed.

(* mantissa digits m, number of digits behind the point fl, exponent ex: the value m * 10^(ex - fl), in lowest terms *)
Definition pow10 (n : N) : positive :=
  match n with N0 => 1%positive | Npos p => Pos.iter (Pos.mul 10) 1%positive p end.
Definition lit_value (m : N) (fl : N) (ex : Z) : Q :=
  let sh := (ex - Z.of_N fl)%Z in
  if (0 <=? sh)%Z then Qred ((Z.of_N m * Z.pos (pow10 (Z.to_N sh))) # 1)
  else Qred (Z.of_N m # pow10 (Z.to_N (- sh))).

Lemma pow10_Z n : Z.pos (pow10 n) = (10 ^ Z.of_N n)%Z.
Proof.
  destruct n as [|p]; [reflexivity|exact (Pos2Z.inj_pow 10 p)].
Qed.

(* 10^n as a rational: the scale of a literal, multiplied when the shift is positive, divided when it is negative *)
Lemma pow10_Q n : (inject_Z (Z.pos (pow10 n)) == inject_Z 10 ^ Z.of_N n)%Q.
Proof. rewrite pow10_Z. apply Zpower_Qpower, N2Z.is_nonneg. Qed.

Theorem lit_value_spec m fl ex :
  (lit_value m fl ex == inject_Z (Z.of_N m) * inject_Z 10 ^ (ex - Z.of_N fl))%Q.
Proof.
  unfold lit_value. destruct (ex - Z.of_N fl)%Z as [|p|p]; cbn [Z.leb Z.compare Z.opp Z.to_N];
    (etransitivity; [apply Qred_correct|]).
  - reflexivity.
  - change (_ # 1) with (inject_Z (Z.of_N m * Z.pos (pow10 (N.pos p)))). rewrite inject_Z_mult.
    apply Qmult_comp; [reflexivity|exact (pow10_Q (N.pos p))].
  - etransitivity; [apply Qmake_Qdiv|]. apply Qmult_comp; [reflexivity|]. apply Qinv_comp. exact (pow10_Q (N.pos p)).
Qed.

(* the exponent part, if one stands in front of s: ("e"|"E") ("+"|"-")? DIGIT+ ; otherwise nothing is consumed *)
Definition lex_exponent (s : string) : option Z * string :=
  match s with
  | String c r =>
      if (code c =? 101)%N || (code c =? 69)%N then
        let '(neg, r1) := match r with
                          | String c1 r' => if (code c1 =? 45)%N then (true, r')
                                            else if (code c1 =? 43)%N then (false, r') else (false, r)
                          | EmptyString => (false, r)
                          end in
        let (ds, r2) := span is_digit r1 in
        match ds with
        | EmptyString => (None, s)
        | _ => (Some (if neg then (- Z.of_N (digits_val 0 ds))%Z else Z.of_N (digits_val 0 ds)), r2)
        end
      else (None, s)
  | EmptyString => (None, s)
  end.

(* s starts with a digit or a point *)
Definition lex_number (s : string) : option (tok * string) :=
  let (ip, r1) := span is_digit s in
  let '(dot, fp, r2) := match r1 with
                        | String c r' => if (code c =? 46)%N then let (f, r'') := span is_digit r' in (true, f, r'')
                                         else (false, EmptyString, r1)
                        | EmptyString => (false, EmptyString, r1)
                        end in
  match ip, fp with
  | EmptyString, EmptyString => None
  | _, _ =>
      let (ex, r3) := lex_exponent r2 in
      let m := digits_val (digits_val 0 ip) fp in
      let fl := N.of_nat (String.length fp) in
      match ex with
      | None => Some (TNum (lit_value m fl 0) (negb dot), r3)
      | Some e => Some (TNum (lit_value m fl e) false, r3)
      end
  end.

Definition lex_one (s : string) : option (tok * string) :=
  match s with
  | EmptyString => None
  | String c r =>
      if is_digit c || (code c =? 46)%N then lex_number s
      else if is_id_start c then let (a, b) := span is_id_char s in Some (TId a, b)
      else if (code c =? 42)%N then
        match r with
        | String c1 r' => if (code c1 =? 42)%N then Some (TPow, r') else Some (TStar, r)
        | EmptyString => Some (TStar, r)
        end
      else if (code c =? 43)%N then Some (TPlus, r)
      else if (code c =? 45)%N then Some (TMinus, r)
      else if (code c =? 47)%N then Some (TSlash, r)
      else if (code c =? 40)%N then Some (TLP, r)
      else if (code c =? 41)%N then Some (TRP, r)
      else if (code c =? 44)%N then Some (TComma, r)
      else None
  end.

Fixpoint skip_space (s : string) : string :=
  match s with
  | String c r => if is_space c then skip_space r else s
  | EmptyString => s
  end.

Fixpoint lex_fuel (n : nat) (s : string) : option (list tok) :=
  match skip_space s with
  | EmptyString => Some []
  | s' => match n with
          | O => None
          | S n' => match lex_one s' with
                    | Some (t, r) => match lex_fuel n' r with Some l => Some (t :: l) | None => None end
                    | None => None
                    end
          end
  end.

(* every token consumes a character, so the length is meant to be fuel enough; no lemma states that: the theorems
   below are about rendered text, where the fuel is shown to suffice *)
Definition lex (s : string) : option (list tok) := lex_fuel (String.length s) s.

Definition parse_string (s : string) : option expr :=
  match lex s with Some ts => parse_expr ts | None => None end.

(* a source token: numbers as they are spelled (an integer literal, or mantissa and negative decimal exponent) *)
Inductive stok :=
| SInt (n : N)
| SDec (m : N) (e : N)            (* written  <m>e-<e> *)
| SId (s : string)
| SOp (t : tok).                   (* one of the eight operator tokens *)

Definition str_of_N (n : N) : string := NilEmpty.string_of_uint (N.to_uint n).

Definition op_string (t : tok) : string :=
  match t with
  | TPlus => "+" | TMinus => "-" | TStar => "*" | TSlash => "/" | TPow => "**" | TLP => "(" | TRP => ")"
  | TComma => "," | _ => ""
  end.
Definition is_op (t : tok) : bool := match t with TNum _ _ | TId _ => false | _ => true end.

Definition tok_of (t : stok) : tok :=
  match t with
  | SInt n => TNum (lit_value n 0 0) true
  | SDec m e => TNum (lit_value m 0 (- Z.of_N e)) false
  | SId s => TId s
  | SOp t => t
  end.

Definition render_tok (t : stok) : string :=
  match t with
  | SInt n => str_of_N n
  | SDec m e => str_of_N m ++ "e-" ++ str_of_N e
  | SId s => s
  | SOp t => op_string t
  end.

Definition good_id (s : string) : bool :=
  match s with String c r => is_id_start c && all_chars is_id_char r | EmptyString => false end.

Definition good (t : stok) : bool :=
  match t with SId s => good_id s | SOp t => is_op t | _ => true end.

Fixpoint render (l : list stok) : string :=
  match l with
  | [] => EmptyString
  | t :: l' => render_tok t ++ String " " (render l')
  end.

Lemma digits_uint d : all_chars is_digit (NilEmpty.string_of_uint d) = true.
Proof. induction d; [reflexivity|exact IHd..]. Qed.

(* one more digit k behind acc, as digits_val and as Pos.of_uint_acc count it *)
Lemma acc_digit acc k : (Npos acc * 10 + k)%N = Npos (match k with N0 => 10 * acc | Npos k => k + 10 * acc end).
Proof. destruct k; lia. Qed.

Lemma digits_val_acc d : forall acc : positive,
  digits_val (Npos acc) (NilEmpty.string_of_uint d) = Npos (Pos.of_uint_acc d acc).
Proof.
  induction d; intros acc; cbn [NilEmpty.string_of_uint digits_val Pos.of_uint_acc]; try reflexivity;
    vm_compute (code _ - 48)%N; rewrite acc_digit; exact (IHd _).
Qed.

Lemma digits_val_uint d : digits_val 0 (NilEmpty.string_of_uint d) = N.of_uint d.
Proof.
  induction d; cbn [NilEmpty.string_of_uint digits_val N.of_uint Pos.of_uint]; try reflexivity;
    vm_compute (0 * 10 + _)%N; [exact IHd|apply digits_val_acc..].
Qed.

Lemma digits_val_N n : digits_val 0 (str_of_N n) = n.
Proof. unfold str_of_N. rewrite digits_val_uint. apply DecimalN.Unsigned.of_to. Qed.

Lemma str_of_N_digits n : all_chars is_digit (str_of_N n) = true.
Proof. apply digits_uint. Qed.

(* were the string empty, its value n would be 0: but 0 is written "0" *)
Lemma str_of_N_ne n : str_of_N n <> "".
Proof. intros E. pose proof (digits_val_N n) as H. rewrite E in H. subst n. discriminate E. Qed.

Arguments lit_value : simpl never.
Arguments digits_val : simpl never.

Lemma space_ind (P : ascii -> Prop) : P " "%char -> P "009"%char -> P "010"%char -> P "012"%char -> P "013"%char ->
  forall w, is_space w = true -> P w.
Proof.
  intros H1 H2 H3 H4 H5 w H. rewrite <- (ascii_N_embedding w). unfold is_space, code in H.
  repeat (apply orb_prop in H as [H|H]); apply N.eqb_eq in H; rewrite H; assumption.
Qed.

Lemma space_codes w : is_space w = true ->
  is_digit w = false /\ is_id_char w = false /\ (code w =? 46)%N = false
  /\ ((code w =? 101)%N || (code w =? 69)%N)%bool = false /\ (code w =? 42)%N = false.
Proof. revert w. apply space_ind; vm_compute; auto. Qed.

Lemma lex_one_space w r : is_space w = true -> lex_one (String w r) = None.
Proof. revert w. apply space_ind; reflexivity. Qed.

Lemma id_start_codes c : is_id_start c = true -> (is_digit c || (code c =? 46)%N)%bool = false.
Proof. unfold is_id_start, is_digit. lia. Qed.

Lemma lex_one_number s rest : s <> "" -> all_chars is_digit s = true -> lex_one (s ++ rest) = lex_number (s ++ rest).
Proof.
  destruct s as [|c r]; [congruence|]. intros _ H. apply andb_prop in H as [Hc _].
  cbn [append]. unfold lex_one. rewrite Hc. reflexivity.
Qed.

Lemma lex_one_int s w rest : is_space w = true -> s <> "" -> all_chars is_digit s = true ->
  lex_one (s ++ String w rest) = Some (TNum (lit_value (digits_val 0 s) 0 0) true, String w rest).
Proof.
  intros Hw Hne Hd. destruct (space_codes w Hw) as (Wd & _ & W46 & We & _).
  rewrite (lex_one_number s _ Hne Hd). unfold lex_number. rewrite (span_all is_digit s (String w rest) Hd Wd).
  destruct s as [|c r]; [congruence|]. rewrite W46. unfold lex_exponent. rewrite We. reflexivity.
Qed.

Lemma lex_one_dec s1 s2 w rest : is_space w = true ->
  s1 <> "" -> all_chars is_digit s1 = true -> s2 <> "" -> all_chars is_digit s2 = true ->
  lex_one ((s1 ++ "e-" ++ s2) ++ String w rest)
  = Some (TNum (lit_value (digits_val 0 s1) 0 (- Z.of_N (digits_val 0 s2))) false, String w rest).
Proof.
  intros Hw Hn1 Hd1 Hn2 Hd2. destruct (space_codes w Hw) as (Wd & _).
  rewrite !append_assoc, (lex_one_number s1 _ Hn1 Hd1). cbn [append].
  unfold lex_number. rewrite (span_all is_digit s1 (String "e" (String "-" (s2 ++ String w rest))) Hd1 eq_refl).
  destruct s1 as [|c r]; [congruence|]. change (code "e" =? 46)%N with false. unfold lex_exponent.
  change ((code "e" =? 101)%N || (code "e" =? 69)%N) with true. change (code "-" =? 45)%N with true. cbv beta iota.
  rewrite (span_all is_digit s2 (String w rest) Hd2 Wd).
  destruct s2 as [|c2 r2]; [congruence|]. reflexivity.
Qed.

Lemma good_id_chars s : good_id s = true -> all_chars is_id_char s = true.
Proof.
  destruct s as [|c r]; [discriminate|]. cbn [good_id all_chars]. intros H. apply andb_prop in H as [Hc Hr].
  unfold is_id_char at 1. rewrite Hc, Hr. reflexivity.
Qed.

Lemma lex_one_id s w rest : is_space w = true -> good_id s = true ->
  lex_one (s ++ String w rest) = Some (TId s, String w rest).
Proof.
  intros Hw H. destruct (space_codes w Hw) as (_ & Wi & _). pose proof (good_id_chars s H) as Hs.
  destruct s as [|c r]; [discriminate|]. apply andb_prop in H as [Hc _].
  unfold lex_one. cbn [append]. rewrite (id_start_codes c Hc), Hc.
  change (String c (r ++ String w rest)) with (String c r ++ String w rest).
  rewrite (span_all is_id_char _ (String w rest) Hs Wi). reflexivity.
Qed.

Lemma lex_one_op t w rest : is_space w = true -> is_op t = true ->
  lex_one (op_string t ++ String w rest) = Some (t, String w rest).
Proof.
  intros Hw. destruct (space_codes w Hw) as (_ & _ & _ & _ & W42).
  destruct t; try discriminate; intros _; try reflexivity.
  cbn [op_string append]. unfold lex_one. rewrite W42. reflexivity.
Qed.

Lemma lex_one_render t w rest : is_space w = true -> good t = true ->
  lex_one (render_tok t ++ String w rest) = Some (tok_of t, String w rest).
Proof.
  intros Hw. destruct t as [n|m e|s|t]; cbn [good render_tok tok_of]; intros H.
  - rewrite (lex_one_int _ w rest Hw (str_of_N_ne n) (str_of_N_digits n)), digits_val_N. reflexivity.
  - rewrite (lex_one_dec _ _ w rest Hw (str_of_N_ne m) (str_of_N_digits m) (str_of_N_ne e) (str_of_N_digits e)), !digits_val_N.
    reflexivity.
  - apply lex_one_id; assumption.
  - apply lex_one_op; assumption.
Qed.

Definition sep (w : string) : Prop := w <> "" /\ all_chars is_space w = true.

Fixpoint layout (l : list (stok * string)) : string :=
  match l with
  | [] => EmptyString
  | (t, w) :: l' => render_tok t ++ w ++ layout l'
  end.

Lemma skip_space_all w rest : all_chars is_space w = true -> skip_space (w ++ rest) = skip_space rest.
Proof.
  induction w as [|c w IH]; cbn [all_chars append skip_space]; intros H; [reflexivity|].
  apply andb_prop in H as [Hc Hw]. rewrite Hc. apply IH. exact Hw.
Qed.

Lemma lex_fuel_skip n w rest : all_chars is_space w = true -> lex_fuel n (w ++ rest) = lex_fuel n rest.
Proof. intros H. destruct n; cbn [lex_fuel]; rewrite (skip_space_all w rest H); reflexivity. Qed.

(* no token begins with white space, so skip_space has nothing to skip in front of one *)
Lemma lex_fuel_step n s t r : lex_one s = Some (t, r) ->
  lex_fuel (S n) s = match lex_fuel n r with Some l => Some (t :: l) | None => None end.
Proof.
  destruct s as [|c s']; [discriminate|]. intros E. cbn [lex_fuel skip_space].
  destruct (is_space c) eqn:Hc; [rewrite (lex_one_space c s' Hc) in E; discriminate E|]. rewrite E. reflexivity.
Qed.

Definition laid (tw : stok * string) : Prop := good (fst tw) = true /\ sep (snd tw).

Lemma lex_fuel_layout l : Forall laid l ->
  forall n, List.length l <= n -> lex_fuel n (layout l) = Some (map (fun tw => tok_of (fst tw)) l).
Proof.
  induction 1 as [|[t [|c w]] l [Ht [Hne Hw]] _ IH]; intros n Hn.
  - destruct n; reflexivity.
  - destruct Hne. reflexivity.
  - destruct n as [|n]; [inversion Hn|]. cbn [layout append map fst].
    rewrite (lex_fuel_step n _ _ _ (lex_one_render t c (w ++ layout l) (proj1 (andb_prop _ _ Hw)) Ht)).
    change (String c (w ++ layout l)) with (String c w ++ layout l).
    rewrite (lex_fuel_skip n (String c w) (layout l) Hw), (IH n (le_S_n _ _ Hn)). reflexivity.
Qed.

Lemma length_layout l : Forall laid l -> List.length l <= String.length (layout l).
Proof.
  induction 1 as [|[t w] l [_ [Hne _]] _ IH]; cbn [layout List.length String.length]; [lia|].
  rewrite !length_append. cbn [snd] in Hne. destruct w; [congruence|]. cbn [String.length]. lia.
Qed.

(* C17, white space is inert: with any leading white space and any separator after each token - blanks, tabs, line breaks
   (the continuation of an expression over several lines), in any number - the lexer produces the same tokens *)
Theorem lex_layout lead l : all_chars is_space lead = true -> Forall laid l ->
  lex (lead ++ layout l) = Some (map (fun tw => tok_of (fst tw)) l).
Proof.
  intros Hl H. unfold lex. rewrite (lex_fuel_skip _ lead (layout l) Hl).
  apply lex_fuel_layout; [exact H|]. rewrite length_append. exact (Nat.le_trans _ _ _ (length_layout l H) (Nat.le_add_l _ _)).
Qed.

Corollary layout_is_inert lead1 lead2 l1 l2 :
  all_chars is_space lead1 = true -> all_chars is_space lead2 = true -> Forall laid l1 -> Forall laid l2 ->
  map fst l1 = map fst l2 -> lex (lead1 ++ layout l1) = lex (lead2 ++ layout l2).
Proof.
  intros H1 H2 F1 F2 E. rewrite (lex_layout lead1 l1 H1 F1), (lex_layout lead2 l2 H2 F2).
  rewrite <- !(map_map fst tok_of), E. reflexivity.
Qed.

Lemma render_layout l : render l = layout (map (fun t => (t, " ")) l).
Proof. induction l as [|t l IH]; cbn [render layout map]; [reflexivity|]. rewrite IH. reflexivity. Qed.

(* [lead]: white space in front of the text, such as the blank behind "=" in an assignment line *)
Lemma lex_lead_render lead l : all_chars is_space lead = true -> Forall (fun t => good t = true) l ->
  lex (lead ++ render l) = Some (map tok_of l).
Proof.
  intros Hl H. rewrite render_layout, lex_layout; [rewrite map_map; reflexivity|exact Hl|].
  apply Forall_map. eapply Forall_impl; [|exact H]. intros t Ht. split; [exact Ht|]. split; [discriminate|reflexivity].
Qed.

Theorem lex_render l : Forall (fun t => good t = true) l -> lex (render l) = Some (map tok_of l).
Proof. exact (lex_lead_render "" l eq_refl). Qed.

Theorem parse_rendered e l :
  writable e -> Forall (fun t => good t = true) l -> map tok_of l = print_expr e ->
  parse_string (render l) = Some e.
Proof.
  intros W G E. unfold parse_string. rewrite (lex_render l G), E. apply parse_print. exact W.
Qed.

(* [parse_rendered] speaks about any spelling l of the printed tokens; here one is computed, so that the printer
   can be run: integer tokens as integer literals, other number tokens as <m>e-<k> with the least k that works (the
   value must be a non-negative decimal fraction in lowest terms - as every number token the lexer makes is) *)
Definition Qeqb_struct (a b : Q) : bool := Z.eqb (Qnum a) (Qnum b) && Pos.eqb (Qden a) (Qden b).

(* for q >= 0 the search ends at the first e for which Qden q divides 10^e.  For a denominator 2^a * 5^b that is
   max a b, which is at most log2 (Qden q) and so below the fuel stok_of_tok gives (the number of binary digits of
   Qden q); for any other denominator there is none: so the fuel should cost no spelling (not proved; find_scale_ok only
   says that what is found is right) *)
Fixpoint find_scale (fuel : nat) (e : N) (q : Q) : option stok :=
  let (dq, dr) := Z.div_eucl (Z.pos (pow10 e)) (Z.pos (Qden q)) in
  if ((dr =? 0)%Z && (0 <=? Qnum q)%Z)%bool then
    let m := Z.to_N (Qnum q * dq) in
    if Qeqb_struct (lit_value m 0 (- Z.of_N e)) q then Some (SDec m e) else None
  else match fuel with
       | O => None
       | S f => find_scale f (e + 1)%N q
       end.

Definition stok_of_tok (t : tok) : option stok :=
  match t with
  | TNum q true =>
      let n := Z.to_N (Qnum q) in
      if Qeqb_struct (lit_value n 0 0) q then Some (SInt n) else None
  | TNum q false => find_scale (Pos.size_nat (Qden q)) 0 q
  | TId s => if good_id s then Some (SId s) else None
  | t => Some (SOp t)
  end.

(* the same test as Expr.Q_eqb_syn *)
Lemma Qeqb_struct_eq a b : Qeqb_struct a b = true -> a = b.
Proof. exact (Q_eqb_syn_eq a b). Qed.

(* a spelling s of the value v is kept only if v is q, field by field *)
Lemma checked_spelling s v i q r : tok_of s = TNum v i -> good s = true ->
  (if Qeqb_struct v q then Some s else None) = Some r -> tok_of r = TNum q i /\ good r = true.
Proof.
  intros Ht Hg. destruct (Qeqb_struct v q) eqn:E; [|discriminate]. intros [= <-].
  rewrite Ht, (Qeqb_struct_eq _ _ E). split; [reflexivity|exact Hg].
Qed.

Lemma find_scale_ok fuel : forall e q s, find_scale fuel e q = Some s -> tok_of s = TNum q false /\ good s = true.
Proof.
  induction fuel as [|f IH]; intros e q s; cbn [find_scale];
    destruct (Z.div_eucl (Z.pos (pow10 e)) (Z.pos (Qden q))) as [dq dr];
    destruct ((dr =? 0)%Z && (0 <=? Qnum q)%Z)%bool.
  - apply checked_spelling; reflexivity.
  - discriminate.
  - apply checked_spelling; reflexivity.
  - apply IH.
Qed.

Lemma stok_of_tok_ok t s : stok_of_tok t = Some s -> tok_of s = t /\ good s = true.
Proof.
  destruct t as [q [|]|x| | | | | | | |]; cbn [stok_of_tok]; try (intros [= <-]; split; reflexivity).
  - apply checked_spelling; reflexivity.
  - apply find_scale_ok.
  - destruct (good_id x) eqn:E; [|discriminate]. intros [= <-]. split; [reflexivity|exact E].
Qed.

Fixpoint spell (ts : list tok) : option (list stok) :=
  match ts with
  | [] => Some []
  | t :: r => match stok_of_tok t, spell r with
              | Some s, Some l => Some (s :: l)
              | _, _ => None
              end
  end.

Lemma spell_ok ts : forall l, spell ts = Some l -> map tok_of l = ts /\ Forall (fun t => good t = true) l.
Proof.
  induction ts as [|t r IH]; cbn [spell]; intros l.
  - intros [= <-]. split; [reflexivity|constructor].
  - destruct (stok_of_tok t) as [s|] eqn:Es; [|discriminate].
    destruct (spell r) as [l'|] eqn:El; [|discriminate]. intros [= <-].
    destruct (stok_of_tok_ok t s Es) as [Ht Hg]. destruct (IH l' eq_refl) as [Hm Hf].
    cbn [map]. rewrite Ht, Hm. split; [reflexivity|constructor; assumption].
Qed.

Definition render_tokens (ts : list tok) : option string :=
  match spell ts with Some l => Some (render l) | None => None end.

Lemma render_tokens_lead lead ts s : all_chars is_space lead = true -> render_tokens ts = Some s -> lex (lead ++ s) = Some ts.
Proof.
  unfold render_tokens. intros Hl. destruct (spell ts) as [l|] eqn:E; [|discriminate]. intros [= <-].
  destruct (spell_ok ts l E) as [Hm Hf]. rewrite (lex_lead_render lead l Hl Hf), Hm. reflexivity.
Qed.

Theorem render_tokens_lex ts s : render_tokens ts = Some s -> lex s = Some ts.
Proof. exact (render_tokens_lead "" ts s eq_refl). Qed.

Definition render_expr (e : expr) : option string := render_tokens (print_expr e).

Lemma render_expr_parse_lead lead e s : all_chars is_space lead = true ->
  writable e -> render_expr e = Some s -> parse_string (lead ++ s) = Some e.
Proof.
  intros Hl W H. unfold parse_string. rewrite (render_tokens_lead lead _ s Hl H). apply parse_print. exact W.
Qed.

Theorem render_expr_parse e s : writable e -> render_expr e = Some s -> parse_string s = Some e.
Proof. exact (render_expr_parse_lead "" e s eq_refl). Qed.

Example lex_examples :
  lex "2*x1**-3.50e+1 /(.5+ 1.)" =
    Some [TNum 2 true; TStar; TId "x1"; TPow; TMinus; TNum 35 false; TSlash; TLP;
          TNum (1 # 2) false; TPlus; TNum 1 false; TRP]
  /\ lex "1e2e3" = Some [TNum 100 false; TId "e3"]
  /\ lex "2e" = Some [TNum 2 true; TId "e"]
  /\ lex "1e+ 5" = Some [TNum 1 true; TId "e"; TPlus; TNum 5 true]
  /\ lex "x # y" = None
  /\ lex "1.5e-3" = Some [TNum (3 # 2000) false]
  /\ parse_string "1e2e3" = None
  /\ parse_string "a - b - c ** 2 ** k" =
       Some (ESub (ESub (EVar "a") (EVar "b")) (EPow (EVar "c") (EPow (ENum 2 true) (EVar "k")))).
Proof. vm_compute. repeat split; reflexivity. Qed.

(* the hypotheses of parse_rendered are met by a non-trivial expression *)
Example rendered_example :
  let e := EAdd (EMul (ENum (lit_value 25 0 (-1)) false) (EVar "V_m")) (EFn Fexp (ENeg (ENum (lit_value 3 0 0) true))) in
  let l := [SOp TLP; SOp TLP; SDec 25 1; SOp TRP; SOp TStar; SOp TLP; SId "V_m"; SOp TRP; SOp TRP; SOp TPlus; SOp TLP;
            SId "exp"; SOp TLP; SOp TMinus; SOp TLP; SInt 3; SOp TRP; SOp TRP; SOp TRP] in
  map tok_of l = print_expr e /\ forallb good l = true
  /\ render l = "( ( 25e-1 ) * ( V_m ) ) + ( exp ( - ( 3 ) ) ) " /\ parse_string (render l) = Some e
  /\ render_expr e = Some (render l)
  /\ render_expr (ENum (1 # 3) false) = None.
Proof. vm_compute. repeat split; reflexivity. Qed.

Example layout_example :
  let nl := String (ascii_of_nat 10) EmptyString in
  let tab := String (ascii_of_nat 9) EmptyString in
  let cr := String (ascii_of_nat 13) EmptyString in
  lex (tab ++ "(a" ++ nl ++ "   +" ++ tab ++ "b" ++ cr ++ nl ++ ")*2") = lex "( a + b ) * 2".
Proof. vm_compute. reflexivity. Qed.

