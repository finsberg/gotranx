(* Cli.v — option plumbing of the command line (cli/__init__.py, cli/utils.py): the options given
   on the command line are merged with the configuration file ([tool.gotranx] of pyproject.toml or
   --config): a key present in the configuration overrides the command line - whatever its value,
   an empty list or 0 included - a key that is absent leaves the command-line value. *)
From GX Require Import Base.
From Coq Require Import QArith_base.
Close Scope Q_scope.
Open Scope string_scope.
Open Scope list_scope.

Record opts := {
  o_scheme : list string;
  o_stiff : list string;
  o_delta : Q;
  o_verbose : bool;
  o_remove_unused : bool;
  o_format : string;
  o_backend : string;
  o_outname : option string }.

Record config := {
  c_scheme : option (list string);
  c_stiff : option (list string);
  c_delta : option Q;
  c_verbose : option bool;
  c_format : option string;     (* [tool.gotranx.python] / [tool.gotranx.c] format *)
  c_backend : option string }.

Definition pick {A} (c : option A) (cli : A) : A := match c with Some v => v | None => cli end.

(* config_data.get(key, cli_value) *)
Definition effective (cli : opts) (cfg : config) : opts :=
  {| o_scheme := pick (c_scheme cfg) (o_scheme cli);
     o_stiff := pick (c_stiff cfg) (o_stiff cli);
     o_delta := pick (c_delta cfg) (o_delta cli);
     o_verbose := pick (c_verbose cfg) (o_verbose cli);
     o_remove_unused := o_remove_unused cli;
     o_format := pick (c_format cfg) (o_format cli);
     o_backend := pick (c_backend cfg) (o_backend cli);
     o_outname := o_outname cli |}.

Definition empty_config : config :=
  {| c_scheme := None; c_stiff := None; c_delta := None; c_verbose := None; c_format := None; c_backend := None |}.

Theorem no_config_keeps_the_command_line cli : effective cli empty_config = cli.
Proof. destruct cli; reflexivity. Qed.

Theorem config_overrides_whatever_its_value cli cfg s st d :
  c_scheme cfg = Some s -> c_stiff cfg = Some st -> c_delta cfg = Some d ->
  o_scheme (effective cli cfg) = s /\ o_stiff (effective cli cfg) = st /\ o_delta (effective cli cfg) = d.
Proof. intros H1 H2 H3. simpl. rewrite H1, H2, H3. auto. Qed.

Theorem absent_keys_leave_the_command_line cli cfg :
  c_scheme cfg = None -> c_stiff cfg = None -> c_delta cfg = None ->
  o_scheme (effective cli cfg) = o_scheme cli /\ o_stiff (effective cli cfg) = o_stiff cli
  /\ o_delta (effective cli cfg) = o_delta cli.
Proof. intros H1 H2 H3. simpl. rewrite H1, H2, H3. auto. Qed.

Theorem options_without_configuration_key_pass_through cli cfg :
  o_remove_unused (effective cli cfg) = o_remove_unused cli /\ o_outname (effective cli cfg) = o_outname cli.
Proof. split; reflexivity. Qed.

(* gotran2c.py / gotran2py.py:  out = fname if outname is None else Path(outname)  - the -o name if given, otherwise
   the model path.  The step that follows there, out.with_suffix(suffix), which replaces the last suffix by .h / .py,
   is not modelled. *)
Definition out_path (model : string) (outname : option string) : string := pick outname model.
