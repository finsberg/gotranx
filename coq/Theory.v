(* Theory.v — consequences of validator soundness that the property files cite:
   agreement of two validated programs and the mirror's rhs with and without removal (C12),
   Euler = states + dt * rhs and the dt = 0 law (C05), index tables, initial-value functions and the
   argument-order option (C04),
   the meaning transferred to a sub-model fed its missing variables, and what the missing variables are (C13). *)
From GX Require Import Base Expr Ode OrderSound Target Sem Codegen Valid MirrorValid Carriers.
From Coq Require Import QArith_base.
Close Scope Q_scope.
Open Scope string_scope.
Open Scope list_scope.

Section Agree.
  Context {T : Type} (N : NumOps T) (o : ode).
  Variable ss : list string.
  Variable inp : inputs T.
  Variable with_dt : bool.

  Theorem named_agree tbl f1 f2 :
    sizes_ok o ss inp -> reserved_free o inp with_dt = true ->
    valid_named o ss inp with_dt tbl f1 = true -> valid_named o ss inp with_dt tbl f2 = true ->
    exists out, exec N f1 with_dt inp = Some out /\ exec N f2 with_dt inp = Some out
                /\ length out = length tbl.
  Proof.
    intros Hsz Hrf H1 H2.
    destruct (named_sound N o ss inp with_dt tbl f1 Hsz Hrf H1) as (o1 & E1 & L1 & S1).
    destruct (named_sound N o ss inp with_dt tbl f2 Hsz Hrf H2) as (o2 & E2 & L2 & S2).
    exists o1. split; [exact E1|]. split; [|exact L1]. rewrite E2. apply f_equal.
    apply list_eq_nth; [congruence|]. intros i Hi. rewrite L2 in Hi.
    destruct (nth_error_some_lt tbl i Hi) as [s Es].
    destruct (S1 i s Es) as (v1 & Hn1 & Hs1). destruct (S2 i s Es) as (v2 & Hn2 & Hs2).
    rewrite Hn1, Hn2. apply f_equal. eapply Sem_fun; eauto.
  Qed.

  (* C12: two validated rhs programs for the same model (e.g. generated with and without
     removal of unused variables) return the same array *)
  Theorem rhs_agree f1 f2 :
    sizes_ok o ss inp -> reserved_free o inp with_dt = true ->
    valid_rhs o ss inp with_dt f1 = true -> valid_rhs o ss inp with_dt f2 = true ->
    exists out, exec N f1 with_dt inp = Some out /\ exec N f2 with_dt inp = Some out
                /\ length out = length ss.
  Proof.
    intros Hsz Hrf H1 H2. rewrite <- (map_length deriv_name_of ss).
    apply named_agree; auto using valid_rhs_named.
  Qed.

  (* C05: the Euler step is  states + dt * rhs  slot by slot *)
  Theorem euler_is_rhs_step fe fr :
    CommOps N -> with_dt = true ->
    sizes_ok o ss inp -> reserved_free o inp with_dt = true ->
    states_clean o ss inp with_dt = true -> NoDup ss ->
    valid_euler o ss inp with_dt fe = true -> valid_rhs o ss inp with_dt fr = true ->
    exists oe orr,
      exec N fe with_dt inp = Some oe /\ exec N fr with_dt inp = Some orr
      /\ length oe = length ss /\ length orr = length ss
      /\ forall i, i < length ss ->
           exists sv fv, nth_error (in_states inp) i = Some sv /\ nth_error orr i = Some fv
                         /\ nth_error oe i = Some (add N sv (mul N (in_dt inp) fv)).
  Proof.
    intros HC Hdt Hsz Hrf Hcl Hnd He Hr.
    destruct (euler_sound N o ss inp with_dt fe HC Hdt Hsz Hrf Hcl Hnd He) as (oe & Ee & Le & Se).
    destruct (rhs_sound N o ss inp with_dt fr Hsz Hrf Hr) as (orr & Er & Lr & Sr).
    exists oe, orr. repeat split; auto.
    intros i Hi. destruct (nth_error_some_lt ss i Hi) as [s Es].
    destruct (Se i s Es) as (sv & fv & Hsv & Hfv & Hoe).
    destruct (Sr i s Es) as (fv' & Hor & Hfv').
    exists sv, fv'. split; [exact Hsv|]. split; [exact Hor|].
    rewrite Hoe. rewrite (Sem_fun N o ss inp with_dt _ _ Hfv _ Hfv'). reflexivity.
  Qed.

  (* C05, the dt = 0 law, for carriers with the laws of Carriers.RingLaws; the rationals have them (QcOps_ring) *)
  Theorem euler_dt0 fe :
    RingLaws N -> with_dt = true -> in_dt inp = ofQ N 0%Q ->
    sizes_ok o ss inp -> reserved_free o inp with_dt = true ->
    states_clean o ss inp with_dt = true -> NoDup ss ->
    valid_euler o ss inp with_dt fe = true ->
    exec N fe with_dt inp = Some (in_states inp).
  Proof.
    intros HR Hdt H0 Hsz Hrf Hcl Hnd He.
    assert (HC : CommOps N) by (constructor; [apply (rl_add_comm N HR)|apply (rl_mul_comm N HR)]).
    destruct (euler_sound N o ss inp with_dt fe HC Hdt Hsz Hrf Hcl Hnd He) as (oe & Ee & Le & Se).
    rewrite Ee. apply f_equal. destruct Hsz as (Hs1 & _).
    apply list_eq_nth; [congruence|]. intros i Hi. rewrite Le in Hi.
    destruct (nth_error_some_lt ss i Hi) as [s Es].
    destruct (Se i s Es) as (sv & fv & Hsv & _ & Hoe).
    rewrite Hoe, Hsv, H0. apply f_equal.
    rewrite (rl_mul_zero N HR). apply (rl_add_zero N HR).
  Qed.
End Agree.

(* C04: an index table without repetitions is a bijection between its names and 0..n-1 and refuses
   every other name *)
Theorem index_table_bijective (tbl : list string) :
  NoDup tbl ->
  (forall x i, index_of x tbl = Some i <-> nth_error tbl i = Some x)
  /\ (forall x i, index_of x tbl = Some i -> i < length tbl)
  /\ (forall x y i, index_of x tbl = Some i -> index_of y tbl = Some i -> x = y)
  /\ (forall i, i < length tbl -> exists x, index_of x tbl = Some i)
  /\ (forall x, ~ In x tbl <-> index_of x tbl = None).
Proof.
  intros Hnd. split; [|split; [|split; [|split]]].
  - intros x i. split; [apply index_of_nth | apply NoDup_index_of; exact Hnd].
  - intros x i. apply index_of_lt.
  - intros x y i. apply index_of_inj.
  - intros i Hi. destruct (nth_error_some_lt tbl i Hi) as [x E].
    exists x. apply NoDup_index_of; assumption.
  - intros x. split; apply index_of_None.
Qed.

Section InitValues.
  Context {T : Type}.

  Lemma set_nth_length (l : list T) i v : length (set_nth l i v) = length l.
  Proof. revert i; induction l as [|x l IH]; intros [|i]; simpl; auto. Qed.

  Lemma set_nth_same (l : list T) i v : i < length l -> nth_error (set_nth l i v) i = Some v.
  Proof.
    revert i; induction l as [|x l IH]; intros [|i] H; try (destruct (Nat.nlt_0_r _ H)); [reflexivity|].
    exact (IH i (proj2 (Nat.succ_lt_mono _ _) H)).
  Qed.

  Lemma set_nth_other (l : list T) i j v : i <> j -> nth_error (set_nth l i v) j = nth_error l j.
  Proof.
    revert i j; induction l as [|x l IH]; intros [|i] [|j] H; simpl; auto; try congruence.
  Qed.

  Fixpoint last_override (k : string) (kw : list (string * T)) : option T :=
    match kw with
    | [] => None
    | (k', v) :: kw' =>
        match last_override k kw' with
        | Some w => Some w
        | None => if String.eqb k k' then Some v else None
        end
    end.

  (* C04, the init functions called with keyword overrides kw: every keyword must be a known name (otherwise KeyError = None);
     slot i holds the (last) override given for the name at i, else the default *)
  Theorem apply_overrides_spec (tbl : list string) :
    NoDup tbl ->
    forall kw vals r,
      length vals = length tbl ->
      apply_overrides tbl vals kw = Some r ->
      length r = length tbl
      /\ (forall k v, In (k, v) kw -> In k tbl)
      /\ forall i x, nth_error tbl i = Some x ->
           nth_error r i = match last_override x kw with
                           | Some v => Some v
                           | None => nth_error vals i
                           end.
  Proof.
    intros Hnd kw. induction kw as [|[k v] kw IH]; intros vals r Hl H; simpl in H.
    - injection H as <-. split; [exact Hl|]. split; [intros ? ? []|]. intros; reflexivity.
    - destruct (index_of k tbl) as [j|] eqn:Ej; [|discriminate].
      assert (Hl' : length (set_nth vals j v) = length tbl) by (rewrite set_nth_length; exact Hl).
      destruct (IH _ _ Hl' H) as (Hr & Hk & Hs).
      split; [exact Hr|]. split.
      + intros k' v' [[= <- <-]|Hin]; [|eauto].
        apply index_of_nth in Ej. eapply nth_error_In; eauto.
      + intros i x Hx. rewrite (Hs i x Hx). simpl.
        destruct (last_override x kw) as [w|]; [reflexivity|].
        destruct (String.eqb_spec x k) as [->|Hne].
        * rewrite (NoDup_index_of _ _ _ Hnd Hx) in Ej. injection Ej as <-.
          apply set_nth_same. rewrite Hl. apply nth_error_Some. congruence.
        * apply set_nth_other. intros ->. apply index_of_nth in Ej. congruence.
  Qed.

  Theorem apply_overrides_unknown (tbl : list string) (vals : list T) (kw : list (string * T)) k v :
    In (k, v) kw -> ~ In k tbl -> apply_overrides tbl vals kw = None.
  Proof.
    revert vals; induction kw as [|[k' v'] kw IH]; intros vals Hin Hni; [destruct Hin|].
    simpl. destruct Hin as [[= -> ->]|Hin].
    - apply index_of_None in Hni. rewrite Hni. reflexivity.
    - destruct (index_of k' tbl); [|reflexivity]. apply IH; assumption.
  Qed.
End InitValues.

(* about an arbitrary name, arity and body: the literal function name and the generated body in the goal would make
   every step several times dearer to check *)
Lemma only_formals_differ nm args1 args2 n body f1 f2 :
  Some (Build_func nm args1 n body) = Some f1 -> Some (Build_func nm args2 n body) = Some f2 ->
  f_body f1 = f_body f2 /\ f_nret f1 = f_nret f2 /\ f_name f1 = f_name f2.
Proof. intros [= <-] [= <-]. auto. Qed.

(* C04: the argument-order option changes only the formal parameters of the mirror's functions *)
Theorem gen_rhs_order_only_formals o ru ord1 ord2 f1 f2 :
  gen_rhs o ru ord1 = Some f1 -> gen_rhs o ru ord2 = Some f2 ->
  f_body f1 = f_body f2 /\ f_nret f1 = f_nret f2 /\ f_name f1 = f_name f2.
Proof.
  unfold gen_rhs. case (sorted_states o); [intros ss|discriminate].
  case (sorted_names o ru); [intros ord|discriminate]. apply only_formals_differ.
Qed.

Theorem gen_euler_order_only_formals o ru nm ord1 ord2 f1 f2 :
  gen_euler o ru nm ord1 = Some f1 -> gen_euler o ru nm ord2 = Some f2 ->
  f_body f1 = f_body f2 /\ f_nret f1 = f_nret f2 /\ f_name f1 = f_name f2.
Proof.
  unfold gen_euler. case (sorted_states o); [intros ss|discriminate].
  case (sorted_names o ru); [intros ord|discriminate]. apply only_formals_differ.
Qed.

(* C13: a sub-model that is fed the full model's values gives every quantity the value it has in the full model *)
Section SubModel.
  Context {T : Type} (N : NumOps T).
  Variables (ofull osub : ode) (ssf sss : list string) (inpf inps : inputs T) (wd : bool).

  Hypothesis sub_assigns : forall x a, find_assign osub x = Some a -> find_assign ofull x = Some a.
  (* every name the sub-model does not define (its states, parameters, missing variables, t, dt)
     is fed the value the full model gives that name *)
  Hypothesis fed : forall x v, find_assign osub x = None -> base osub sss inps wd x = Some v ->
                               Sem N ofull ssf inpf wd x v.

  Theorem sub_sem_transfer x v : Sem N osub sss inps wd x v -> Sem N ofull ssf inpf wd x v.
  Proof.
    induction 1 as [x v Hf Hb | x a rho Hf Hdeps IH].
    - apply fed; assumption.
    - apply SemDef; [apply sub_assigns; exact Hf|exact IH].
  Qed.
End SubModel.

(* C13: missing variables are exactly the names used but not defined *)
Theorem missing_names_exact o x :
  In x (missing_names o) <->
  (exists a, In a (assigns o) /\ In x (vars (a_expr a))) /\ known_symbol o x = false.
Proof.
  exact (missing_names_spec o x).
Qed.

(* C12 for the mirror compiler: for every well-formed model, the rhs generated with removal of unused
   variables returns the same array as the one generated without *)
Theorem mirror_rhs_removal_invariant {T} (N : NumOps T) (o : ode) order1 order2 ss f1 f2 (inp : inputs T) :
  sorted_states o = Some ss -> wf_gen o ss false = true ->
  gen_rhs o false order1 = Some f1 -> gen_rhs o true order2 = Some f2 ->
  sizes_ok o ss inp ->
  exists out, exec N f1 false inp = Some out /\ exec N f2 false inp = Some out /\ length out = length ss.
Proof.
  intros Hss Hwf H1 H2 Hsz.
  destruct (mirror_rhs_correct N o false order1 ss f1 inp Hss Hwf H1 Hsz) as (V1 & _).
  destruct (mirror_rhs_correct N o true order2 ss f2 inp Hss Hwf H2 Hsz) as (V2 & _).
  exact (rhs_agree N o ss inp false f1 f2 Hsz (wf_reserved_free o ss false inp Hwf) V1 V2).
Qed.
