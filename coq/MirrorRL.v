(* MirrorRL.v — a mirror of the Rush-Larsen generators (schemes.generalized_rush_larsen /
   hybrid_rush_larsen as the code generator prints them) and the proof that, for every well-formed
   model and every assignment of modes to the states (Euler / guarded / plain - the decision sympy
   makes per state), the function it produces passes Schemes.valid_scheme over the model extended
   with the linearisation helpers; with Schemes.scheme_sound it therefore runs and returns in each
   slot the value the property prescribes for that mode. *)
From GX Require Import Base Expr Ode OrderSound Target Sem Codegen Valid Schemes MirrorValid.
From Coq Require Import QArith_base.
Close Scope Q_scope.
Open Scope string_scope.
Open Scope list_scope.

Definition e_one : expr := ENum 1%Q true.
Definition rl_term (n g : string) : expr :=
  EDiv (EMul (EVar n) (ESub (EFn Fexp (EMul (EVar g) (EVar "dt"))) e_one)) (EVar g).
Definition rl_guard (g : string) (delta : Q) : expr := ERel Rgt (EFn Fabs (EVar g)) (ENum delta false).
Definition rl_update (md : mode) (delta : Q) (n : string) : expr :=
  let s := st_of n in let g := lin_name n in
  match md with
  | MEuler => euler_update n
  | MPlain => EAdd (EVar s) (rl_term n g)
  | MGuard => EAdd (EVar s) (ECond (rl_guard g delta) (rl_term n g) (EMul (EVar "dt") (EVar n)))
  end.

Fixpoint rl_body (o : ode) (modes : list mode) (stiff : string -> bool) (delta : Q)
  (l : list string) (idx : nat) : list stmt :=
  match l with
  | [] => []
  | n :: l' =>
      if is_deriv_name o n then
        match slot_mode modes stiff idx (st_of n) with
        | MEuler => SLet n (a_expr_of o n) :: SStore idx (rl_update MEuler delta n)
                    :: rl_body o modes stiff delta l' (S idx)
        | md => SLet n (a_expr_of o n) :: SLet (lin_name n) (D (st_of n) (a_expr_of o n))
                :: SStore idx (rl_update md delta n) :: rl_body o modes stiff delta l' (S idx)
        end
      else SLet n (a_expr_of o n) :: rl_body o modes stiff delta l' idx
  end.

Definition gen_rl (o : ode) (remove_unused : bool) (modes : list mode) (stiff : string -> bool)
  (delta : Q) (name order : string) : option func :=
  match sorted_states o, sorted_names o remove_unused with
  | Some ss, Some ord =>
      Some {| f_name := name;
              f_args := with_missing o (arg_list order);
              f_nret := List.length (state_names o);
              f_body := prologue o ss keep_all (Codegen.condition o remove_unused)
                        ++ rl_body o modes stiff delta ord 0 |}
  | _, _ => None
  end.

(* the Rush-Larsen loop is the common loop with a longer tail after each derivative *)
Definition rl_tail (o : ode) (modes : list mode) (stiff : string -> bool) (delta : Q) (i : nat) (n : string)
  : list stmt :=
  match slot_mode modes stiff i (st_of n) with
  | MEuler => [SStore i (rl_update MEuler delta n)]
  | md => [SLet (lin_name n) (D (st_of n) (a_expr_of o n)); SStore i (rl_update md delta n)]
  end.

Lemma rl_body_gen o modes stiff delta l : forall idx,
  rl_body o modes stiff delta l idx = gen_body o (is_deriv_name o) (rl_tail o modes stiff delta) l idx.
Proof.
  induction l as [|n l IH]; intros idx; cbn [rl_body gen_body]; [reflexivity|]. unfold rl_tail.
  case (is_deriv_name o n); [case (slot_mode modes stiff idx (st_of n))|]; rewrite IH; reflexivity.
Qed.

Lemma stores_rl_body o modes stiff delta l idx i :
  stores_at i (rl_body o modes stiff delta l idx) =
  if Nat.leb idx i
  then match nth_error (filter (is_deriv_name o) l) (i - idx) with
       | Some n => [rl_update (slot_mode modes stiff i (st_of n)) delta n]
       | None => []
       end
  else [].
Proof.
  rewrite rl_body_gen. apply (gen_body_stores o _ _ (fun j n => rl_update (slot_mode modes stiff j (st_of n)) delta n)).
  intros j n. unfold rl_tail, stores_at. case (slot_mode modes stiff j (st_of n)); cbn [flat_map app]; rewrite ?app_nil_r; reflexivity.
Qed.

Section RL.
  Context {T : Type} (o : ode) (ru : bool) (ss ord : list string) (inp : inputs T).
  Variables (modes : list mode) (stiff : string -> bool) (delta : Q).
  Let o' := extend_lin o.
  Hypothesis Hss : sorted_states o = Some ss.
  Hypothesis Hord : sorted_names o ru = Some ord.
  (* the model (W1, W3, W4 as in MirrorValid) ... *)
  Hypothesis W1 : NoDup (all_names o).
  Hypothesis W3 : forall s, In s ss <-> In s (map d_name (o_states o)).
  Hypothesis W4 : forall n, In n (map a_name (o_derivs o)) -> deriv_name_of (st_of n) = n.
  (* ... and the model extended with the helpers d<state>_dt_linearized: L1, L2, L5 are W1, W2, W5 of
     the extended model; LM: the helpers read no new missing variable *)
  Hypothesis L1 : NoDup (all_names o').
  Hypothesis L2 : forall x, In x (all_names o') -> resv true x = false.
  Hypothesis L5 : forall x, In x (missing_names o') -> resv true x = false.
  Hypothesis LM : missing_names o' = missing_names o.

  Let isd := is_deriv_name o.
  Notation vb := (valid_body o' ss inp true).
  Notation oks := (ok_stmt o' ss inp true).

  Lemma prologue_same sk pk : prologue o' ss sk pk = prologue o ss sk pk.
  Proof. unfold prologue. rewrite LM. reflexivity. Qed.

  Lemma assigns_sub a : In a (assigns o) -> In a (assigns o').
  Proof.
    unfold assigns. cbn [o' extend_lin o_inters o_derivs]. intros H. apply in_app_or in H.
    destruct H as [H|H]; apply in_or_app; [left; apply in_or_app; left; exact H|right; exact H].
  Qed.

  Lemma lin_in_assigns a : In a (o_derivs o) -> In (lin_assign a) (assigns o').
  Proof.
    intros H. unfold assigns. cbn [o' extend_lin o_inters o_derivs].
    apply in_or_app. left. apply in_or_app. right. apply in_map. exact H.
  Qed.

  Lemma anames_sub x : In x (map a_name (assigns o)) -> In x (map a_name (assigns o')).
  Proof. intros H. apply in_map_iff in H. destruct H as (a & <- & H). apply in_map, assigns_sub, H. Qed.

  Lemma names'_nodup : NoDup (map a_name (assigns o')).
  Proof. exact (anames_nodup_g o' L1). Qed.

  Lemma find_same n a : find_assign o n = Some a -> find_assign o' n = Some a.
  Proof.
    intros H. pose proof (find_assign_In o n a H) as [Ha <-]. exact (find_unique o' a names'_nodup (assigns_sub a Ha)).
  Qed.

  Lemma find_lin a : In a (o_derivs o) -> find_assign o' (lin_name (a_name a)) = Some (lin_assign a).
  Proof. intros H. exact (find_unique o' (lin_assign a) names'_nodup (lin_in_assigns a H)). Qed.

  Lemma a_expr_same n a : find_assign o n = Some a -> a_expr_of o' n = a_expr a.
  Proof. intros H. apply a_expr_of_eq. apply find_same. exact H. Qed.

  Lemma deriv_assign n : isd n = true -> exists a, In a (o_derivs o) /\ a_name a = n /\ find_assign o n = Some a.
  Proof.
    intros H. apply mem_In, in_map_iff in H. destruct H as (a & E & Ha).
    exists a. split; [exact Ha|]. split; [exact E|]. subst n. apply find_unique.
    - exact (anames_nodup_g o W1).
    - unfold assigns. apply in_or_app. right. exact Ha.
  Qed.

  Lemma lin_in_names n : isd n = true -> In (lin_name n) (map a_name (assigns o')).
  Proof.
    intros Hd. pose proof (deriv_assign n Hd) as (a & Ha & <- & _).
    exact (in_map a_name _ _ (lin_in_assigns a Ha)).
  Qed.

  (* the names of o' are pairwise distinct, and they are the intermediates of o, then the helpers, then the
     derivatives *)
  Lemma lin_fresh n m : isd n = true -> In m (map a_name (assigns o)) -> lin_name n <> m.
  Proof.
    intros Hd Hm <-. pose proof (deriv_assign n Hd) as (a & Ha & <- & _).
    pose proof names'_nodup as Hnd. unfold assigns in Hnd, Hm.
    cbn [o' extend_lin o_inters o_derivs] in Hnd. rewrite !map_app in Hnd. rewrite map_app in Hm.
    assert (HL : In (lin_name (a_name a)) (map a_name (map lin_assign (o_derivs o))))
      by exact (in_map a_name _ _ (in_map lin_assign _ _ Ha)).
    pose proof (NoDup_app_elim _ _ Hnd) as (Hil & _ & Hld). apply in_app_or in Hm. destruct Hm as [Hm|Hm].
    - exact (proj2 (proj2 (NoDup_app_elim _ _ Hil)) _ Hm HL).
    - exact (Hld _ (in_or_app _ _ _ (or_intror HL)) Hm).
  Qed.

  Lemma lin_inj n m : lin_name n = lin_name m -> n = m.
  Proof. apply append_inj_r. Qed.

  Lemma is_rl_term_rl n g : is_rl_term n g (rl_term n g) = true.
  Proof.
    unfold rl_term, e_one. cbn [is_rl_term is_mul2 is_expm1 is_var is_num].
    rewrite !String.eqb_refl, Q_eqb_syn_refl. reflexivity.
  Qed.

  Lemma is_update_rl md n : deriv_name_of (st_of n) = n -> is_update md delta (st_of n) (rl_update md delta n) = true.
  Proof.
    intros E. unfold is_update. rewrite E. case md; unfold rl_update.
    - exact (is_euler_update n E).
    - cbn [is_add2 is_var is_guarded_term rl_guard is_guard is_num is_dt_mul].
      rewrite is_rl_term_rl, !String.eqb_refl, Q_eqb_syn_refl. reflexivity.
    - cbn [is_add2 is_var]. rewrite is_rl_term_rl, String.eqb_refl. reflexivity.
  Qed.

  Lemma upd_vars md n d :
    In (st_of n) d -> In n d -> In "dt" d -> (md <> MEuler -> In (lin_name n) d) ->
    incl (vars (rl_update md delta n)) d.
  Proof.
    intros Hs Hn Hdt Hg. unfold rl_update, euler_update, rl_term, rl_guard. fold (st_of n).
    destruct md; cbn [vars app e_one];
      repeat (apply incl_cons; [first [assumption|apply Hg; discriminate]|]); apply incl_nil_l.
  Qed.

  Lemma rl_tail_binds i n y : In y (flat_map binds (rl_tail o modes stiff delta i n)) -> lin_name n = y.
  Proof.
    unfold rl_tail. case (slot_mode modes stiff i (st_of n)); cbn [flat_map binds app];
      [intros []|intros [H|[]]; exact H..].
  Qed.

  (* the helper is the assignment lin_assign of the extended model and reads what n reads; the update
     reads the state of n, n, dt and, unless the slot is an Euler slot, the helper *)
  Lemma rl_tail_valid nr i n d :
    isd n = true -> i < nr -> In n d -> In "dt" d -> In (st_of n) d ->
    (forall y, In y (vars (a_expr_of o n)) -> In y d) ->
    (forall y, In y (flat_map binds (rl_tail o modes stiff delta i n)) -> ~ In y d) ->
    vb nr d (rl_tail o modes stiff delta i n) = true.
  Proof.
    intros Hd Hi Hn Hdt Hst Hvars. pose proof (deriv_assign n Hd) as (a & Hb & Eb & Hfa).
    assert (Hstore : forall md d', (forall y, In y d -> In y d') -> (md <> MEuler -> In (lin_name n) d') ->
                                   oks nr d' (SStore i (rl_update md delta n)) = true).
    { intros md d' H2 H3. apply ok_store; [exact Hi|]. apply upd_vars; auto. }
    (* with the helper: it is bound first, and the store may read it *)
    assert (Hlin : forall md, ~ In (lin_name n) d ->
              vb nr d [SLet (lin_name n) (D (st_of n) (a_expr_of o n)); SStore i (rl_update md delta n)] = true).
    { intros md Hfr. cbn [valid_body binds app].
      rewrite Hstore; [|intros y Hy; right; exact Hy|left; reflexivity]. cbn [andb]. rewrite andb_true_r.
      pose proof (find_lin a Hb) as Hfl. rewrite Eb in Hfl. rewrite (a_expr_of_eq o n a Hfa) in Hvars |- *.
      replace (D (st_of n) (a_expr a)) with (a_expr (lin_assign a)) by (simpl; rewrite Eb; reflexivity).
      apply (ok_let o' ss inp true nr d _ _ Hfl Hfr). intros y Hy. apply D_vars in Hy. exact (Hvars y Hy). }
    unfold rl_tail. case (slot_mode modes stiff i (st_of n)); cbn [flat_map binds app]; intros Hfr.
    - (* an Euler slot: the store alone *)
      cbn [valid_body]. rewrite Hstore; [reflexivity|auto|congruence].
    - apply Hlin, Hfr. left. reflexivity.
    - apply Hlin, Hfr. left. reflexivity.
  Qed.

  Notation pk := (Codegen.condition o ru).
  Notation Dp := (defs_after (prologue o' ss keep_all pk) (reserved inp true)).

  Lemma not_in_Dp x : In x (map a_name (assigns o')) -> ~ In x Dp.
  Proof. exact (prologue_fresh_g o' true ss inp L1 L2 W3 keep_all pk x). Qed.

  Lemma ord_emits_Dp : emits o Dp ord.
  Proof.
    split; [exact (ord_nodup o ru ord Hord)|]. split.
    - intros n Hn. apply not_in_Dp, anames_sub, (ord_in o ru ord Hord), Hn.
    - rewrite prologue_same. apply (ord_deps o ru true ss ord inp Hord W3); [reflexivity|intros n a y; apply keep_used].
  Qed.

  Theorem gen_rl_valid name order f :
    gen_rl o ru modes stiff delta name order = Some f ->
    valid_scheme o ss inp modes stiff delta f = true.
  Proof.
    (* the function is prologue + the common loop with the Rush-Larsen tail: valid by gen_body_valid at the extended
       model, where the tail binds the helper name of n and nothing else; slot i holds the update of its mode *)
    unfold gen_rl. rewrite Hss, Hord. intros [= <-].
    unfold valid_scheme. cbn [f_nret]. fold o'. rewrite <- (prologue_same keep_all pk).
    pose proof (ss_nodup o ru ss ord Hss Hord W1 W3 W4) as Hsn.
    pose proof (ss_length o ru ss ord Hss Hord W1 W3 W4) as Hsl.
    pose proof (dl_length o ru ss ord Hss Hord W1 W3 W4) as Hdl.
    rewrite (proj2 (Nat.eqb_eq _ _) (eq_sym Hsl)). apply (fun_valid_g o' true ss inp L1 L2 W3 Hsn L5).
    - rewrite rl_body_gen.
      apply (gen_body_valid o o' ss inp true isd _ find_same);
        [exact ord_emits_Dp| | |exact (Nat.eq_le_incl _ _ Hdl)].
      + intros n y Hn (Hd & i & Hy). apply rl_tail_binds in Hy. subst y.
        split; [exact (not_in_Dp _ (lin_in_names n Hd))|]. split.
        * intros Hc. exact (lin_fresh n _ Hd (ord_in o ru ord Hord _ Hc) eq_refl).
        * intros m _ (_ & j & Hy). exact (lin_inj _ _ (rl_tail_binds j m _ Hy)).
      + intros n i d' Hn Hd Hi Hsub Hvars Hfr.
        apply rl_tail_valid; [exact Hd|exact Hi| | | |exact Hvars|exact Hfr]; apply Hsub; [left; reflexivity|right..].
        * apply (prologue_defs_g o' true ss inp). left. reflexivity.
        * apply (prologue_defs_g o' true ss inp). right. left. split; [reflexivity|].
          rewrite (ss_eq o ru ss ord Hss Hord W1 W3). apply in_map. apply filter_In. split; [exact Hn|exact Hd].
    - intros i Hi. rewrite stores_rl_body. cbn [Nat.leb].
      rewrite Nat.sub_0_r, (nth_error_nth' _ "") by (rewrite Hdl; exact Hi).
      pose proof (deriv_slot o ru ss ord Hss Hord W1 W3 W4 i Hi) as (Hs & E4 & Hd).
      eexists. split; [reflexivity|]. unfold ok_scheme. rewrite Hs, E4, (is_update_rl _ _ E4). exact Hd.
  Qed.
End RL.

(* C06 / C07 for the mirror; the four hypotheses after [wf_gen] are L1, L2, L5, LM of Section RL *)
Theorem mirror_rl_correct {T} (N : NumOps T) (o : ode) ru modes stiff delta name order ss f (inp : inputs T) :
  FieldLaws N ->
  sorted_states o = Some ss -> wf_gen o ss true = true ->
  NoDup (all_names (extend_lin o)) ->
  (forall x, In x (all_names (extend_lin o)) -> resv true x = false) ->
  (forall x, In x (missing_names (extend_lin o)) -> resv true x = false) ->
  missing_names (extend_lin o) = missing_names o ->
  gen_rl o ru modes stiff delta name order = Some f ->
  sizes_ok o ss inp ->
  valid_scheme o ss inp modes stiff delta f = true
  /\ exists out,
      exec N f true inp = Some out
      /\ List.length out = List.length ss
      /\ forall i s, nth_error ss i = Some s ->
           exists sv fv gv,
             nth_error (in_states inp) i = Some sv
             /\ Sem N (extend_lin o) ss inp true (deriv_name_of s) fv
             /\ (slot_mode modes stiff i s = MEuler \/ Sem N (extend_lin o) ss inp true (lin_name (deriv_name_of s)) gv)
             /\ nth_error out i = Some (slot_value N (slot_mode modes stiff i s) delta sv fv gv (in_dt inp)).
Proof.
  intros HF Hss Hwf L1 L2 L5 LM Hgen Hsz.
  pose proof (wf_gen_spec o ss true Hwf) as (W1 & W2 & W3 & W4 & W5).
  destruct (sorted_names o ru) as [ord|] eqn:Hord; [|unfold gen_rl in Hgen; rewrite Hss, Hord in Hgen; discriminate].
  pose proof (gen_rl_valid o ru ss ord inp modes stiff delta Hss Hord W1 W3 W4 L1 L2 L5 LM name order f Hgen) as Hv.
  split; [exact Hv|].
  apply (scheme_sound N o ss inp HF modes stiff delta f); [| | | |exact Hv].
  - unfold sizes_ok. rewrite LM. exact Hsz.
  - exact (reserved_free_g (extend_lin o) true inp L2).
  - exact (states_clean_g (extend_lin o) true ss inp L1 L2 W3).
  - exact (ss_nodup o ru ss ord Hss Hord W1 W3 W4).
Qed.

Print Assumptions mirror_rl_correct.
