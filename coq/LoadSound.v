(* LoadSound.v — what the loader mirror accepts is well formed (C08): the boolean equalities on atoms are equalities,
   each stage of the loader accepts exactly what its membership condition says, [load_sound].  Python's sets are lists
   here, the loader's insertion and union are Base.add_by and Base.dedup_by.  Then the component split (C13) and the
   inertness of comment items (C17). *)
From GX Require Import Base Expr Ode Load.

Lemma list_str_eqb_eq a : forall b, list_str_eqb a b = true <-> a = b.
Proof.
  induction a as [|x a IH]; intros [|y b]; simpl; try (split; discriminate); [split; reflexivity|]. split.
  - intros H. apply andb_prop in H. destruct H as [Hx Hl]. apply String.eqb_eq in Hx. apply IH in Hl. congruence.
  - intros [= -> ->]. rewrite String.eqb_refl. apply IH. reflexivity.
Qed.

Lemma opt_str_eqb_eq a b : opt_str_eqb a b = true <-> a = b.
Proof.
  destruct a, b; simpl; try (split; discriminate); [|split; reflexivity].
  split; [intros H; apply String.eqb_eq in H; congruence|intros [= ->]; apply String.eqb_refl].
Qed.

Lemma expr_eqb_iff a b : expr_eqb a b = true <-> a = b.
Proof. split; [apply expr_eqb_eq|intros ->; apply expr_eqb_refl]. Qed.

(* the comparison the three equalities on atoms share; [b] compares the second field *)
Lemma fields_eqb {n n'} {b : bool} {P : Prop} {c c' u u' k k'} :
  (b = true <-> P) ->
  (String.eqb n n' && b && list_str_eqb c c' && opt_str_eqb u u' && opt_str_eqb k k' = true
   <-> (((n = n' /\ P) /\ c = c') /\ u = u') /\ k = k').
Proof.
  intros HP. repeat apply andb_iff; [apply String.eqb_eq|exact HP|apply list_str_eqb_eq|apply opt_str_eqb_eq|apply opt_str_eqb_eq].
Qed.

Lemma decl_eqb_eq a b : decl_eqb a b = true <-> a = b.
Proof.
  destruct a, b. eapply iff_trans; [apply (fields_eqb (expr_eqb_iff _ _))|]. simpl.
  split; [intros [[[[-> ->] ->] ->] ->]; reflexivity|intros [= -> -> -> -> ->]; auto].
Qed.

Lemma assign_eqb_eq a b : assign_eqb a b = true <-> a = b.
Proof.
  destruct a, b. eapply iff_trans; [apply (fields_eqb (expr_eqb_iff _ _))|]. simpl.
  split; [intros [[[[-> ->] ->] ->] ->]; reflexivity|intros [= -> -> -> -> ->]; auto].
Qed.

Lemma atom_eqb_eq x y : atom_eqb x y = true <-> x = y.
Proof.
  split.
  - destruct x, y; simpl; try discriminate; intros H; f_equal; apply decl_eqb_eq || apply assign_eqb_eq; exact H.
  - intros <-. destruct x; simpl; apply decl_eqb_eq || apply assign_eqb_eq; reflexivity.
Qed.

(* [dedup_decl] is [dedup_by decl_eqb] and [dedup_assign] is [dedup_by assign_eqb], by conversion *)
Lemma dedup_decl_In l x : In x (dedup_decl l) <-> In x l.
Proof. exact (dedup_by_In _ decl_eqb_eq l x). Qed.
Lemma dedup_decl_NoDup l : NoDup (dedup_decl l).
Proof. exact (dedup_by_NoDup _ decl_eqb_eq l). Qed.
Lemma dedup_assign_In l x : In x (dedup_assign l) <-> In x l.
Proof. exact (dedup_by_In _ assign_eqb_eq l x). Qed.
Lemma dedup_assign_NoDup l : NoDup (dedup_assign l).
Proof. exact (dedup_by_NoDup _ assign_eqb_eq l). Qed.

Lemma first_missing_state_None c l :
  first_missing_state c l = None <->
  forall a s, In a l -> deriv_state (a_name a) = Some s -> has_state c s = true.
Proof.
  induction l as [|b l IH]; simpl; [split; [intros _ a s []|reflexivity]|].
  destruct (deriv_state (a_name b)) as [s|] eqn:E; [destruct (has_state c s) eqn:Hs|].
  2: { split; [discriminate|]. intros H. specialize (H b s (or_introl eq_refl) E). congruence. }
  (* in the other two cases [b] passes and the scan goes on *)
  all: eapply iff_trans; [apply IH|]; split; [intros H a s' [<-|Ha] Hd; [congruence|eauto]|eauto].
Qed.

Lemma handle_assignments_Ok cs :
  handle_assignments cs = Ok tt <->
  forall c a s, In c cs -> In a (c_assigns c) -> deriv_state (a_name a) = Some s -> has_state c s = true.
Proof.
  induction cs as [|c0 cs IH]; simpl; [split; [intros _ c a s []|reflexivity]|].
  pose proof (first_missing_state_None c0 (c_assigns c0)) as F.
  destruct (first_missing_state c0 (c_assigns c0)) as [s0|].
  - split; [discriminate|]. intros H. apply proj2 in F. discriminate F. intros a s. apply H. left. reflexivity.
  - split.
    + intros H c a s [<-|Hc]; [apply F; reflexivity|apply (proj1 IH H c a s Hc)].
    + intros H. apply IH. intros c a s Hc. apply H. right. exact Hc.
Qed.

Lemma check_components_Ok cs :
  check_components cs = Ok tt <-> forall c, In c cs -> complete c = true.
Proof.
  eapply iff_trans; [|apply forallb_forall].
  induction cs as [|c cs IH]; simpl; [split; reflexivity|]. destruct (complete c); [exact IH|split; discriminate].
Qed.

Lemma first_missing_symbol_None syms l :
  first_missing_symbol syms l = None <-> forall x, In x l -> In x syms.
Proof.
  apply (iff_trans (B := forallb (fun x => mem x syms) l = true)); [|apply forallb_mem].
  induction l as [|y l IH]; simpl; [split; reflexivity|]. destruct (mem y syms); [exact IH|split; discriminate].
Qed.

Lemma clashes_false x y : clashes x y = false <-> (atom_name x = atom_name y -> x = y).
Proof.
  unfold clashes. destruct (String.eqb_spec (atom_name x) (atom_name y)) as [E|NE]; simpl.
  - pose proof (atom_eqb_eq x y) as Q. destruct (atom_eqb x y); simpl.
    + split; [intros _ _; apply Q; reflexivity|reflexivity].
    + split; [discriminate|intros H; apply H, Q in E; discriminate].
  - split; [intros _ E; contradiction|reflexivity].
Qed.

Lemma first_dup_None l :
  first_dup l = None <-> forall x y, In x l -> In y l -> atom_name x = atom_name y -> x = y.
Proof.
  induction l as [|z l IH]; simpl; [split; [intros _ x y []|reflexivity]|].
  destruct (existsb (clashes z) l) eqn:E.
  - split; [discriminate|]. intros H. apply existsb_exists in E. destruct E as (y & Hy & E).
    rewrite (proj2 (clashes_false z y)) in E; [discriminate|]. apply H; auto.
  - assert (C : forall y, In y l -> clashes z y = false).
    { intros y Hy. destruct (clashes z y) eqn:Ec; [|reflexivity]. rewrite <- E. symmetry. apply existsb_exists. eauto. }
    split.
    + intros H x y [<-|Hx] [<-|Hy] Hn; [reflexivity|apply clashes_false; auto|symmetry; apply clashes_false; auto|apply (proj1 IH H); assumption].
    + intros H. apply IH. intros x y Hx Hy. apply H; right; assumption.
Qed.

Definition accepted (cs : list comp) : Prop :=
  handle_assignments cs = Ok tt /\ check_components cs = Ok tt
  /\ first_dup (all_atoms cs) = None /\ resolve cs = Ok tt.

Lemma load_comps_iff items cs :
  load_comps items = Ok cs <-> transform [] items = Ok cs /\ accepted cs.
Proof.
  unfold load_comps, accepted, bind. destruct (transform [] items) as [cs0|e]; [|split; [discriminate|intros [[=] _]]].
  split; [|intros ([= <-] & -> & -> & -> & ->); reflexivity].
  destruct (handle_assignments cs0) as [[]|] eqn:E1; [|discriminate]. destruct (check_components cs0) as [[]|] eqn:E2; [|discriminate].
  destruct (first_dup (all_atoms cs0)) eqn:E3; [discriminate|]. destruct (resolve cs0) as [[]|] eqn:E4; [|discriminate].
  intros [= <-]. auto.
Qed.

Lemma load_iff items o :
  load items = Ok o <-> exists cs, load_comps items = Ok cs /\ o = ode_of cs.
Proof.
  unfold load. destruct (load_comps items) as [cs|e]; simpl.
  - split; [intros [= <-]; eauto|intros (cs' & [= <-] & ->); reflexivity].
  - split; [discriminate|intros (cs' & [=] & _)].
Qed.

Lemma resolve_Ok cs :
  resolve cs = Ok tt <-> forall a x, In a (all_assigns cs) -> In x (vars (a_expr a)) -> In x (symbols cs).
Proof.
  unfold resolve. pose proof (first_missing_symbol_None (symbols cs) (flat_map (fun a => vars (a_expr a)) (all_assigns cs))) as F.
  destruct (first_missing_symbol _ _).
  - split; [discriminate|]. intros H. apply proj2 in F. discriminate F. intros x Hx.
    apply in_flat_map in Hx. destruct Hx as (a & Ha & Hx). eauto.
  - split; [|reflexivity]. intros _ a x Ha Hx. apply F; [reflexivity|]. apply in_flat_map. eauto.
Qed.

Lemma accepted_iff cs :
  accepted cs <->
  (forall c a s, In c cs -> In a (c_assigns c) -> deriv_state (a_name a) = Some s -> has_state c s = true)
  /\ (forall c, In c cs -> complete c = true)
  /\ (forall x y, In x (all_atoms cs) -> In y (all_atoms cs) -> atom_name x = atom_name y -> x = y)
  /\ (forall a x, In a (all_assigns cs) -> In x (vars (a_expr a)) -> In x (symbols cs)).
Proof.
  repeat apply and_iff; [apply handle_assignments_Ok|apply check_components_Ok|apply first_dup_None|apply resolve_Ok].
Qed.

(* C08: whatever the loader mirror accepts is well formed:
   (1) two atoms of one name, of any kind and in any component, are one and the same definition;
   (2) every derivative d<s>_dt has a state s declared in its own component;
   (3) every state has a derivative in its component;
   (4) every symbol an assignment references is defined (or is t / time). *)
Theorem load_sound items cs :
  load_comps items = Ok cs ->
  (forall l1 x l2, all_atoms cs = l1 ++ x :: l2 ->
     forall y, In y l2 -> atom_name x = atom_name y -> atom_eqb x y = true)
  /\ (forall c a s, In c cs -> In a (c_assigns c) -> deriv_state (a_name a) = Some s ->
        has_state c s = true)
  /\ (forall c d, In c cs -> In d (c_states c) -> state_has_derivative c d = true)
  /\ (forall a x, In a (all_assigns cs) -> In x (vars (a_expr a)) -> In x (symbols cs)).
Proof.
  intros H. apply load_comps_iff, proj2, accepted_iff in H. destruct H as (H1 & H2 & H3 & H4).
  split; [|split; [exact H1|split; [|exact H4]]].
  - intros l1 x l2 E y Hy Hn. apply atom_eqb_eq, H3; [rewrite E; apply in_elt|rewrite E; apply in_or_app; right; right; exact Hy|exact Hn].
  - intros c d Hc. apply forallb_forall, H2, Hc.
Qed.

Lemma state_has_derivative_spec c d :
  state_has_derivative c d = true ->
  exists a, In a (c_assigns c) /\ deriv_state (a_name a) = Some (d_name d).
Proof.
  intros H. apply existsb_exists in H. destruct H as (a & Ha & H).
  exists a. split; [exact Ha|].
  destruct (deriv_state (a_name a)) as [s|]; [|discriminate].
  apply andb_true_iff in H. destruct H as [H _]. apply String.eqb_eq in H. congruence.
Qed.

Lemma state_names_of cs n :
  In n (map d_name (o_states (ode_of cs))) <-> exists c, In c cs /\ In n (map d_name (c_states c)).
Proof.
  unfold ode_of; simpl. rewrite in_map_iff. split.
  - intros (d & <- & Hd). apply dedup_decl_In, in_flat_map in Hd. destruct Hd as (c & Hc & Hd).
    exists c. split; [exact Hc|]. apply in_map. exact Hd.
  - intros (c & Hc & Hn). apply in_map_iff in Hn. destruct Hn as (d & <- & Hd).
    exists d. split; [reflexivity|]. apply dedup_decl_In, in_flat_map. exists c. auto.
Qed.

(* C13: every state of the full model is a state of C.to_ode() or of (model - C), and conversely
   (components are keyed by name: [NoDup (map c_name cs)]) *)
Theorem split_covers_states cs c n :
  NoDup (map c_name cs) -> In c cs ->
  (In n (map d_name (o_states (ode_of cs))) <->
   In n (map d_name (o_states (to_ode c))) \/ In n (map d_name (o_states (minus cs (c_name c))))).
Proof.
  intros Hnd Hc. unfold to_ode, minus. split.
  - intros H. apply state_names_of in H. destruct H as (c' & Hc' & Hn).
    destruct (String.eqb_spec (c_name c') (c_name c)) as [E|NE]; [left|right]; apply state_names_of.
    + exists c. split; [left; reflexivity|]. rewrite <- (NoDup_map_inj c_name cs c' c Hnd Hc' Hc E). exact Hn.
    + exists c'. split; [|exact Hn]. apply filter_In. split; [exact Hc'|]. apply negb_true_iff, String.eqb_neq, NE.
  - intros [H|H]; apply state_names_of in H; destruct H as (c' & Hc' & Hn); apply state_names_of; exists c'; (split; [|exact Hn]).
    + destruct Hc' as [<-|[]]. exact Hc.
    + apply filter_In in Hc'. apply Hc'.
Qed.

(* C13.  What is stated is not that the halves are disjoint but where they can fail to be: a state name found in both
   is declared in [c] and also in a component of another name. *)
Theorem split_halves_disjoint cs c n :
  In n (map d_name (o_states (to_ode c))) -> In n (map d_name (o_states (minus cs (c_name c)))) ->
  exists c', In c' cs /\ c_name c' <> c_name c /\ In n (map d_name (c_states c')) /\ In n (map d_name (c_states c)).
Proof.
  unfold to_ode, minus. intros H1 H2. apply state_names_of in H1, H2.
  destruct H1 as (c1 & [<-|[]] & H1), H2 as (c2 & H2 & Hn2). apply filter_In in H2. destruct H2 as [H2 Hne].
  exists c2. repeat split; auto. apply String.eqb_neq, negb_true_iff, Hne.
Qed.

Lemma transform_app cs l1 l2 :
  transform cs (l1 ++ l2) = bind (transform cs l1) (fun cs' => transform cs' l2).
Proof.
  revert cs; induction l1 as [|it l1 IH]; intros cs; simpl; [reflexivity|].
  destruct (add_item cs it) as [cs'|e]; simpl; [apply IH|reflexivity].
Qed.

(* C17: comment items are inert, wherever they stand and whatever they say *)
Theorem comment_items_are_ignored l1 s l2 :
  load_comps (l1 ++ IComment s :: l2) = load_comps (l1 ++ l2) /\ load (l1 ++ IComment s :: l2) = load (l1 ++ l2).
Proof.
  assert (H : transform [] (l1 ++ IComment s :: l2) = transform [] (l1 ++ l2)).
  { rewrite !transform_app. destruct (transform [] l1); simpl; reflexivity. }
  unfold load, load_comps. rewrite H. split; reflexivity.
Qed.

Theorem comment_text_is_irrelevant l1 s s' l2 :
  load (l1 ++ IComment s :: l2) = load (l1 ++ IComment s' :: l2).
Proof.
  destruct (comment_items_are_ignored l1 s l2) as [_ ->].
  destruct (comment_items_are_ignored l1 s' l2) as [_ ->]. reflexivity.
Qed.
