(* DiffR.v — the symbolic derivative D (Schemes.v) is the derivative, over the real numbers
   (Coquelicot's is_derive), of the expression as a function of one name with every other name held
   fixed - on the smooth fragment (+ - * / neg exp sin cos tan atan log sqrt) and
   at points of its domain.  This is the "g = derivative of the rate with respect to the own state"
   of C06 and the entries of the Jacobian of C20.  Then C06's "converges to the Euler step as dt -> 0"
   (slot_first_order_is_euler). *)
From Coq Require Import Reals QArith.
From Coquelicot Require Import Hierarchy Derive ElemFct AutoDerive.
From GX Require Import Base Expr Schemes RealsC.
Close Scope Q_scope.
Open Scope R_scope.

Definition upd (rho : string -> R) (x : string) (v : R) : string -> R :=
  fun y => if String.eqb y x then v else rho y.

Lemma upd_same rho x : forall y, upd rho x (rho x) y = rho y.
Proof. intros y. unfold upd. destruct (String.eqb_spec y x); subst; reflexivity. Qed.

(* the smooth fragment with its domain conditions at the point rho.  Left out (False): Pow, Mod, abs, floor, asin, acos,
   relations, Not / And / Or, Conditional *)
Fixpoint dom (rho : string -> R) (x : string) (e : expr) : Prop :=
  match e with
  | ENum _ _ | EPi | EVar _ => True
  | EAdd a b | ESub a b | EMul a b => dom rho x a /\ dom rho x b
  | EDiv a b => dom rho x a /\ dom rho x b /\ eval ROps rho b <> 0
  | ENeg a => dom rho x a
  | EFn Fexp a | EFn Fsin a | EFn Fcos a | EFn Fatan a => dom rho x a
  | EFn Ftan a => dom rho x a /\ cos (eval ROps rho a) <> 0
  | EFn Flog a | EFn Fsqrt a => dom rho x a /\ 0 < eval ROps rho a
  | _ => False
  end.

Lemma eval_at rho x e : eval ROps (upd rho x (rho x)) e = eval ROps rho e.
Proof. apply eval_ext. intros y _. apply upd_same. Qed.

(* a derivative is usually obtained in a form of Coquelicot's own: change its value at the end *)
Lemma is_derive_eq (f : R -> R) (x l l' : R) : is_derive f x l -> l = l' -> is_derive f x l'.
Proof. intros H <-. exact H. Qed.

(* the chain rule, for an outer function of the reals; what the inner function is at the point comes as an equation *)
Lemma is_derive_chain (g : R -> R) (x gx dg : R) :
  g x = gx -> is_derive g x dg ->
  forall (phi : R -> R) (dphi : R), is_derive phi gx dphi -> is_derive (fun v => phi (g v)) x (dphi * dg).
Proof.
  intros <- Hg phi dphi Hp. exact (is_derive_eq _ _ _ _ (is_derive_comp phi g x dphi dg Hp Hg) (Rmult_comm dg dphi)).
Qed.

Theorem D_sound rho x e :
  dom rho x e ->
  is_derive (fun v => eval ROps (upd rho x v) e) (rho x) (eval ROps rho (D x e)).
Proof.
  (* every case: the rule of Coquelicot; the value it gives is that of D up to u ^ 2 = u * u, commutativity and the
     value of an integer literal *)
  assert (Hc : forall c : R, is_derive (fun _ : R => c) (rho x) (eval ROps rho (e_num 0))).
  { intros c. simpl. rewrite Q2R_inject_Z. apply (is_derive_const (K := R_AbsRing) (V := R_NormedModule)). }
  induction e; intros H; try contradiction.
  - (* ENum *) exact (Hc _).
  - (* EVar *) cbn [D eval]. unfold upd. rewrite String.eqb_sym. destruct (String.eqb x x0); [|exact (Hc _)].
    simpl. rewrite Q2R_inject_Z. apply (is_derive_id (K := R_AbsRing)).
  - (* EPi *) exact (Hc _).
  - (* EAdd *) destruct H as [H1 H2]. exact (is_derive_plus _ _ _ _ _ (IHe1 H1) (IHe2 H2)).
  - (* ESub *) destruct H as [H1 H2]. exact (is_derive_minus _ _ _ _ _ (IHe1 H1) (IHe2 H2)).
  - (* EMul *) destruct H as [H1 H2].
    eapply is_derive_eq; [exact (Derive.is_derive_mult _ _ _ _ _ (IHe1 H1) (IHe2 H2))|].
    cbv beta. rewrite !eval_at. reflexivity.
  - (* EDiv *) destruct H as (H1 & H2 & H3).
    eapply is_derive_eq; [apply (is_derive_div _ _ _ _ _ (IHe1 H1) (IHe2 H2))|]; cbv beta; rewrite !eval_at; [exact H3|].
    rewrite <- Rsqr_pow2. reflexivity.
  - (* ENeg *) exact (is_derive_opp _ _ _ (IHe H)).
  - (* EFn: the chain rule *)
    destruct f; try contradiction; try destruct H as [H Hd];
      pose proof (is_derive_chain _ _ _ _ (eval_at rho x e) (IHe H)) as Hch.
    + exact (Hch exp _ (is_derive_exp _)).
    + exact (Hch cos _ (is_derive_cos _)).
    + exact (Hch sin _ (is_derive_sin _)).
    + eapply is_derive_eq; [exact (Hch tan _ (is_derive_tan _ Hd))|].
      rewrite <- Rsqr_pow2, (Rplus_comm _ 1). simpl. rewrite Q2R_inject_Z. reflexivity.
    + eapply is_derive_eq; [exact (Hch atan _ (is_derive_atan _))|]. simpl. rewrite Q2R_inject_Z. apply Rmult_comm.
    + eapply is_derive_eq; [exact (Hch ln _ (is_derive_ln _ Hd))|apply Rmult_comm].
    + (* filterdiff_sqrt y : 0 < y -> is_derive sqrt y (/ (2 * sqrt y)), with is_derive unfolded *)
      eapply is_derive_eq; [exact (Hch sqrt _ (filterdiff_sqrt _ Hd))|]. simpl. rewrite Q2R_inject_Z. apply Rmult_comm.
Qed.

(* C06: the Rush-Larsen step converges to the Euler step as dt -> 0.
   As a function of dt every slot starts at the state (dt = 0) and has slope f there: it agrees with the
   Euler update x + dt*f to first order, i.e. the difference of the two steps is o(dt).  For the plain
   (unguarded) formula this needs g <> 0, which is what the guard, or the "certainly non-zero" verdict
   that replaces it, is there to ensure. *)
Lemma rl_formula_first_order (x f g : R) :
  g <> 0 -> x + rl_value ROps f g 0 = x /\ is_derive (fun dt : R => x + rl_value ROps f g dt) 0 f.
Proof.
  intros Hg. simpl. rewrite Q2R_1. split.
  - rewrite Rmult_0_r, exp_0, Rminus_eq_0, Rmult_0_r. apply Rplus_0_r.
  - auto_derive; [exact I|]. rewrite Rmult_0_r, exp_0, !Rmult_1_r.
    (* f / g * g = f *) unfold Rdiv. rewrite Rmult_assoc, (Rinv_l g Hg). apply Rmult_1_r.
Qed.

Lemma euler_formula_first_order (x f : R) : x + 0 * f = x /\ is_derive (fun dt : R => x + dt * f) 0 f.
Proof.
  split.
  - rewrite Rmult_0_l. apply Rplus_0_r.
  - auto_derive; [exact I|]. apply Rmult_1_l.
Qed.

Theorem slot_first_order_is_euler (md : mode) (delta : Q) (x f g : R) :
  (md = MPlain -> g <> 0) -> (0 <= Q2R delta) ->
  slot_value ROps md delta x f g 0 = x
  /\ is_derive (fun dt : R => slot_value ROps md delta x f g dt) 0 f.
Proof.
  intros Hp Hd. destruct md; unfold slot_value.
  - apply euler_formula_first_order.
  - (* the guard does not depend on dt: the slot is one of the two formulas for every dt *)
    cbn [select ROps]. destruct (r_nz _) eqn:E.
    + apply rl_formula_first_order, (guard_excludes_zero g (Q2R delta) Hd E).
    + apply euler_formula_first_order.
  - apply rl_formula_first_order, Hp. reflexivity.
Qed.
