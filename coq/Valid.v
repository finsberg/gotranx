(* Valid.v — verified validators for whole generated functions.

   [valid_fun f ok] accepts a function body iff (Sem.valid_body) every name is bound before it is
   read, unpacking reads the slot the index tables assign to the name, every let binds an
   assignment of the model to its own defining expression, and every slot of the returned array
   is written exactly once with an expression of the shape [ok] prescribes for that slot.
   [fun_sound]: an accepted function runs to completion and slot i holds the documented meaning
   (Sem) of an expression of the prescribed shape.  The validators are run, after extraction, on the
   skeleton of the code the implementation really generated. *)
From GX Require Import Base Expr Ode Target Sem.
Open Scope string_scope.
Open Scope list_scope.

Definition stores_at (i : nat) (body : list stmt) : list expr :=
  flat_map (fun s => match s with
                     | SStore j e => if Nat.eqb i j then [e] else []
                     | _ => []
                     end) body.

Lemma stores_at_In i e body : In e (stores_at i body) <-> In (SStore i e) body.
Proof.
  unfold stores_at. rewrite in_flat_map. split.
  - intros (s & Hs & He). destruct s as [x j|x j|x j|x e'|j e']; try contradiction.
    destruct (Nat.eqb_spec i j) as [->|Hne]; [|contradiction].
    destruct He as [->|[]]. exact Hs.
  - intros H. exists (SStore i e). split; [exact H|]. rewrite Nat.eqb_refl. left; reflexivity.
Qed.

Lemma stores_at_app i b1 b2 : stores_at i (b1 ++ b2) = stores_at i b1 ++ stores_at i b2.
Proof. apply flat_map_app. Qed.

Definition slots_ok (nret : nat) (ok : nat -> expr -> bool) (body : list stmt) : bool :=
  forallb (fun i => match stores_at i body with
                    | [e] => ok i e
                    | _ => false
                    end) (seq 0 nret).

Lemma slots_ok_spec nret ok body :
  slots_ok nret ok body = true <->
  forall i, i < nret -> exists e, stores_at i body = [e] /\ ok i e = true.
Proof.
  unfold slots_ok. rewrite forallb_forall. split; intros H i Hi.
  - specialize (H i (proj2 (in_seq _ _ _) (conj (Nat.le_0_l i) Hi))).
    destruct (stores_at i body) as [|e [|]]; try discriminate. eauto.
  - apply in_seq in Hi. destruct (H i (proj2 Hi)) as (e & -> & Hok). exact Hok.
Qed.

Section Valid.
  Context {T : Type} (N : NumOps T) (o : ode).
  Variable ss : list string.
  Variable inp : inputs T.
  Variable with_dt : bool.

  Definition valid_fun (f : func) (ok : nat -> expr -> bool) : bool :=
    valid_body o ss inp with_dt (f_nret f) (reserved inp with_dt) (f_body f)
    && slots_ok (f_nret f) ok (f_body f).

  Theorem fun_sound f ok :
    sizes_ok o ss inp -> reserved_free o inp with_dt = true ->
    valid_fun f ok = true ->
    exists out,
      exec N f with_dt inp = Some out
      /\ length out = f_nret f
      /\ forall i, i < f_nret f ->
           exists e v, ok i e = true /\ SemE N o ss inp with_dt e v /\ nth_error out i = Some v.
  Proof.
    intros Hsz Hrf Hv. apply andb_prop in Hv. destruct Hv as [Hb Hs].
    destruct (exec_sound N o ss inp with_dt f Hsz Hrf Hb) as (out & Hex & Hlen & Hslots).
    exists out. split; [exact Hex|]. split; [exact Hlen|]. intros i Hi.
    destruct (proj1 (slots_ok_spec _ _ _) Hs i Hi) as (e & E & Hok).
    destruct (Hslots i Hi) as [(e' & v & Hin' & Hse & Hn)|(Hno & _)].
    - apply stores_at_In in Hin'. rewrite E in Hin'. destruct Hin' as [<-|[]]. eauto.
    - destruct (Hno e). apply stores_at_In. rewrite E. left; reflexivity.
  Qed.

  (* the common form of the validators below: the array has the length of a table, and slot i is
     checked against the table's entry at i *)
  Lemma table_sound {A} (tbl : list A) ok f :
    sizes_ok o ss inp -> reserved_free o inp with_dt = true ->
    Nat.eqb (f_nret f) (length tbl) && valid_fun f ok = true ->
    exists out,
      exec N f with_dt inp = Some out
      /\ length out = length tbl
      /\ forall i a, nth_error tbl i = Some a ->
           exists e v, ok i e = true /\ SemE N o ss inp with_dt e v /\ nth_error out i = Some v.
  Proof.
    intros Hsz Hrf Hv. apply andb_prop in Hv. destruct Hv as [Hn Hv]. apply Nat.eqb_eq in Hn.
    destruct (fun_sound f ok Hsz Hrf Hv) as (out & Hex & Hlen & Hsl).
    exists out. split; [exact Hex|]. split; [congruence|].
    intros i a Ha. apply Hsl. rewrite Hn. apply nth_error_Some. congruence.
  Qed.

  Lemma valid_fun_mono f (ok ok' : nat -> expr -> bool) :
    (forall i e, ok i e = true -> ok' i e = true) -> valid_fun f ok = true -> valid_fun f ok' = true.
  Proof.
    intros H Hv. apply andb_prop in Hv. destruct Hv as [Hb Hs]. apply andb_true_iff. split; [exact Hb|].
    apply slots_ok_spec. intros i Hi. destruct (proj1 (slots_ok_spec _ _ _) Hs i Hi) as (e & E & Hok). eauto.
  Qed.

  Definition is_var (x : string) (e : expr) : bool :=
    match e with EVar y => String.eqb x y | _ => false end.

  Lemma is_var_eq x e : is_var x e = true -> e = EVar x.
  Proof. destruct e; try discriminate. intros H. apply String.eqb_eq in H. congruence. Qed.

  Definition ok_name (tbl : list string) (i : nat) (e : expr) : bool :=
    match nth_error tbl i with Some n => is_var n e | None => false end.

  Definition ok_rhs (i : nat) (e : expr) : bool :=
    match nth_error ss i with
    | Some s => is_var (deriv_name_of s) e && is_deriv_name o (deriv_name_of s)
    | None => false
    end.

  Definition valid_rhs (f : func) : bool :=
    Nat.eqb (f_nret f) (length ss) && valid_fun f ok_rhs.

  (* monitor_values and missing_values, each with its table of names *)
  Definition valid_named (tbl : list string) (f : func) : bool :=
    Nat.eqb (f_nret f) (length tbl) && valid_fun f (ok_name tbl).

  Theorem named_sound tbl f :
    sizes_ok o ss inp -> reserved_free o inp with_dt = true ->
    valid_named tbl f = true ->
    exists out,
      exec N f with_dt inp = Some out
      /\ length out = length tbl
      /\ forall i n, nth_error tbl i = Some n ->
           exists v, nth_error out i = Some v /\ Sem N o ss inp with_dt n v.
  Proof.
    intros Hsz Hrf Hv. destruct (table_sound tbl (ok_name tbl) f Hsz Hrf Hv) as (out & Hex & Hlen & Hsl).
    exists out. split; [exact Hex|]. split; [exact Hlen|]. intros i n Hs.
    destruct (Hsl i n Hs) as (e & v & Hok & Hse & Hnth). unfold ok_name in Hok. rewrite Hs in Hok.
    apply is_var_eq in Hok. subst e. exists v. split; [exact Hnth|apply SemE_var, Hse].
  Qed.

  Lemma valid_rhs_named f : valid_rhs f = true -> valid_named (map deriv_name_of ss) f = true.
  Proof.
    unfold valid_rhs, valid_named. rewrite map_length. intros H. apply andb_prop in H. destruct H as [Hn Hv].
    apply andb_true_iff. split; [exact Hn|].
    apply (valid_fun_mono f ok_rhs); [|exact Hv]. intros i e. unfold ok_rhs, ok_name. rewrite nth_error_map.
    destruct (nth_error ss i); simpl; [|discriminate]. intros H. apply andb_prop in H. apply H.
  Qed.

  Theorem rhs_sound f :
    sizes_ok o ss inp -> reserved_free o inp with_dt = true ->
    valid_rhs f = true ->
    exists out,
      exec N f with_dt inp = Some out
      /\ length out = length ss
      /\ forall i s, nth_error ss i = Some s ->
           exists v, nth_error out i = Some v /\ Sem N o ss inp with_dt (deriv_name_of s) v.
  Proof.
    intros Hsz Hrf Hv.
    destruct (named_sound _ f Hsz Hrf (valid_rhs_named f Hv)) as (out & Hex & Hlen & Hsl).
    exists out. split; [exact Hex|]. split; [rewrite Hlen; apply map_length|].
    intros i s Hs. apply Hsl, map_nth_error, Hs.
  Qed.

  Definition states_clean : bool :=
    forallb (fun s => negb (is_assign o s) && negb (mem s (reserved inp with_dt))) ss.

  Lemma Sem_state i s :
    sizes_ok o ss inp -> states_clean = true -> NoDup ss -> nth_error ss i = Some s ->
    exists sv, nth_error (in_states inp) i = Some sv /\ Sem N o ss inp with_dt s sv.
  Proof.
    intros Hsz Hc Hnd Hs. unfold states_clean in Hc. rewrite forallb_forall in Hc.
    specialize (Hc s (nth_error_In _ _ Hs)). apply andb_prop in Hc. destruct Hc as [Ha Hr].
    (* a clean state is what SUnpackS s i would bind *)
    apply (unpack_sound N o ss inp with_dt ss (in_states inp) s i (proj1 Hsz)); [|exact Ha|].
    - rewrite (NoDup_index_of _ _ _ Hnd Hs). apply Nat.eqb_refl.
    - intros Hi. unfold base. rewrite (not_reserved_lookup inp with_dt _ Hr), Hi. reflexivity.
  Qed.

  Lemma Sem_dt : with_dt = true -> reserved_free o inp with_dt = true ->
    Sem N o ss inp with_dt "dt" (in_dt inp).
  Proof.
    intros -> Hrf. apply (Agree_env0 N o ss inp true Hrf). reflexivity.
  Qed.

  Lemma Sem_t : reserved_free o inp with_dt = true -> Sem N o ss inp with_dt "t" (in_t inp).
  Proof.
    intros Hrf. apply (Agree_env0 N o ss inp with_dt Hrf).
    destruct with_dt; reflexivity.
  Qed.

  (* explicit Euler: slot i holds  state_i + dt * d<state_i>_dt  (operands in either order, which
     is how sympy's canonical ordering may print them) *)
  Definition is_dt_mul (n : string) (e : expr) : bool :=
    match e with
    | EMul a b => (is_var "dt" a && is_var n b) || (is_var n a && is_var "dt" b)
    | _ => false
    end.

  Definition is_euler (s : string) (e : expr) : bool :=
    match e with
    | EAdd a b => (is_var s a && is_dt_mul (deriv_name_of s) b)
                  || (is_dt_mul (deriv_name_of s) a && is_var s b)
    | _ => false
    end.

  Definition ok_euler (i : nat) (e : expr) : bool :=
    match nth_error ss i with
    | Some s => is_euler s e && is_deriv_name o (deriv_name_of s)
    | None => false
    end.

  Definition valid_euler (f : func) : bool :=
    Nat.eqb (f_nret f) (length ss) && valid_fun f ok_euler.

  Record CommOps : Prop := {
    add_comm : forall a b : T, add N a b = add N b a;
    mul_comm : forall a b : T, mul N a b = mul N b a }.

  Lemma SemE_inv_var x v : SemE N o ss inp with_dt (EVar x) v -> Sem N o ss inp with_dt x v.
  Proof. apply SemE_var. Qed.

  (* the shapes, as facts about [vars] and [eval] alone: what an accepted expression reads, and what it
     computes in any environment.  The two commutative shapes, operands in either order, are stated on the
     match itself: [is_dt_mul n] is the first with x = "dt", [is_euler s] the second with
     p = is_dt_mul (deriv_name_of s), and Schemes.is_mul2 / is_add2 applied to these recognisers unfold to
     them as well *)
  Lemma mul_vars_eval x y e :
    match e with EMul a b => (is_var x a && is_var y b) || (is_var y a && is_var x b) | _ => false end = true ->
    In x (vars e) /\ In y (vars e) /\ (CommOps -> forall rho, eval N rho e = mul N (rho x) (rho y)).
  Proof.
    intros H. destruct e; try discriminate H.
    apply orb_prop in H. destruct H as [H|H]; apply andb_prop in H; destruct H as [H1 H2];
      apply is_var_eq in H1; apply is_var_eq in H2; subst; simpl; (split; [auto|]); (split; [auto|]);
      intros HC rho; [reflexivity|apply (mul_comm HC)].
  Qed.

  Lemma add_var_eval s (p : expr -> bool) e :
    match e with EAdd a b => (is_var s a && p b) || (p a && is_var s b) | _ => false end = true ->
    exists t, p t = true /\ incl (vars t) (vars e)
              /\ (CommOps -> forall rho, eval N rho e = add N (rho s) (eval N rho t)).
  Proof.
    intros H. destruct e; try discriminate H.
    apply orb_prop in H. destruct H as [H|H]; apply andb_prop in H; destruct H as [P Q].
    - apply is_var_eq in P. subst. exists e2. split; [exact Q|]. split; [apply incl_tl, incl_refl|reflexivity].
    - apply is_var_eq in Q. subst. exists e1. split; [exact P|]. split; [apply incl_appl, incl_refl|].
      intros HC rho. apply (add_comm HC).
  Qed.

  Lemma is_euler_eval s e :
    is_euler s e = true ->
    In (deriv_name_of s) (vars e)
    /\ (CommOps -> forall rho, eval N rho e = add N (rho s) (mul N (rho "dt") (rho (deriv_name_of s)))).
  Proof.
    intros H. destruct (add_var_eval _ _ _ H) as (t & Ht & Hi & E).
    destruct (mul_vars_eval _ _ _ Ht) as (_ & Hn & Et).
    split; [exact (Hi _ Hn)|]. intros HC rho. rewrite (E HC), (Et HC). reflexivity.
  Qed.

  Theorem euler_sound f :
    CommOps -> with_dt = true ->
    sizes_ok o ss inp -> reserved_free o inp with_dt = true ->
    states_clean = true -> NoDup ss ->
    valid_euler f = true ->
    exists out,
      exec N f with_dt inp = Some out
      /\ length out = length ss
      /\ forall i s, nth_error ss i = Some s ->
           exists sv fv,
             nth_error (in_states inp) i = Some sv
             /\ Sem N o ss inp with_dt (deriv_name_of s) fv
             /\ nth_error out i = Some (add N sv (mul N (in_dt inp) fv)).
  Proof.
    intros HC Hdt Hsz Hrf Hcl Hnd Hv.
    destruct (table_sound ss ok_euler f Hsz Hrf Hv) as (out & Hex & Hlen & Hsl).
    exists out. split; [exact Hex|]. split; [exact Hlen|]. intros i s Hs.
    destruct (Hsl i s Hs) as (e & v & Hok & Hse & Hnth). unfold ok_euler in Hok. rewrite Hs in Hok.
    apply andb_prop, proj1 in Hok.
    destruct (Sem_state i s Hsz Hcl Hnd Hs) as (sv & Esv & Hsv). destruct (is_euler_eval s e Hok) as [Hin Hev].
    destruct (SemE_known N o ss inp with_dt e v [(s, sv); ("dt", in_dt inp)] Hse) as (rho & Hrho & Hk & ->).
    { intros x w [[= <- <-]|[[= <- <-]|[]]]; [exact Hsv|exact (Sem_dt Hdt Hrf)]. }
    (* the update reads the derivative, so the derivative has a meaning *)
    exists sv, (rho (deriv_name_of s)). split; [exact Esv|]. split; [exact (Hrho _ Hin)|].
    rewrite Hnth, (Hev HC rho), (Hk s sv (or_introl eq_refl)), (Hk "dt" _ (or_intror (or_introl eq_refl))).
    reflexivity.
  Qed.

End Valid.
