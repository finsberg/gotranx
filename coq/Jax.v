(* Jax.v — the functional style of the jax backend (codegen/jax.py, templates/jax.py):
     values[i] = e   is printed as   _values_i = e
   and the function returns  numpy.array([_values_0, ..., _values_{n-1}])  with n the declared
   number of return values.  A slot that no statement assigns is therefore a NameError (where the
   numpy backend returns 0).  For a validated function (every slot written exactly once) the two
   back ends return the same array, of the declared length. *)
From GX Require Import Base Expr Ode Target Sem Valid.
Open Scope string_scope.
Open Scope list_scope.

Section Jax.
  Context {T : Type} (N : NumOps T).

  Definition all_assigned (nret : nat) (vals : list (nat * T)) : bool :=
    forallb (fun i => match lookup_nat i vals with Some _ => true | None => false end) (seq 0 nret).

  Definition exec_jax (f : func) (with_dt : bool) (inp : inputs T) : option (list T) :=
    match run N (f_nret f) inp (env0 inp with_dt, []) (f_body f) with
    | Some (_, vals) => if all_assigned (f_nret f) vals then Some (result N (f_nret f) vals) else None
    | None => None
    end.

  Lemma exec_jax_le f wd inp out : exec_jax f wd inp = Some out -> exec N f wd inp = Some out.
  Proof.
    unfold exec_jax, exec. destruct (run N (f_nret f) inp (env0 inp wd, []) (f_body f)) as [[rho vals]|]; [|discriminate].
    destruct (all_assigned (f_nret f) vals); [auto|discriminate].
  Qed.

  Variables (o : ode) (ss : list string) (inp : inputs T) (wd : bool).

  (* C03: a validated function returns, under jax, an array of the declared length equal to the
     numpy result *)
  Theorem jax_equals_numpy f ok :
    sizes_ok o ss inp -> reserved_free o inp wd = true ->
    valid_fun o ss inp wd f ok = true ->
    exists out, exec_jax f wd inp = Some out /\ exec N f wd inp = Some out /\ length out = f_nret f.
  Proof.
    intros Hsz Hrf Hv. apply andb_prop in Hv. destruct Hv as [Hb Hs].
    destruct (run_sound N o ss inp wd (f_nret f) (f_body f) Hsz (env0 inp wd) [] Hb (Agree_env0 N o ss inp wd Hrf))
      as (rho' & vals' & Hrun & _ & _ & _ & _ & Hall & _).
    exists (result N (f_nret f) vals').
    assert (Ha : all_assigned (f_nret f) vals' = true).
    { apply forallb_forall. intros i Hi. apply in_seq in Hi.
      destruct (proj1 (slots_ok_spec _ _ _) Hs i (proj2 Hi)) as (e & E & _).
      destruct (Hall i e) as (v & Hin & _); [apply stores_at_In; rewrite E; left; reflexivity|].
      destruct (In_lookup_nat i v vals' Hin) as [w ->]. reflexivity. }
    unfold exec_jax, exec. unfold env in *. rewrite Hrun, Ha.
    split; [reflexivity|]. split; [reflexivity|apply result_length].
  Qed.
End Jax.
