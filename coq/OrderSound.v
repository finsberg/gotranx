(* OrderSound.v — at its head, what the queries of Ode.v compute (find_assign, all_assign_names, missing_names,
   known_symbol, ...): Ode.v holds definitions only, and the files that reason about a loaded model import this one.
   Then: ODE.sorted_assignments (its mirror, Ode.sorted_names) defines every assignment before it is used, for
   every model for which it returns an order, with and without remove_unused (sorted_names_sound, C01); a model
   whose assignments depend on each other cyclically gets no order at all, and no other model is refused
   (sorted_names_iff_ranked, C08 and C10).
   Built on KahnSound.build_order_sound and build_order_iff_ranked (the graphlib mirror is sound and complete). *)
From GX Require Import Base Expr Topo Ode KahnSound.
From Coq Require Import Permutation.

Lemma find_assign_In o n a : find_assign o n = Some a -> In a (assigns o) /\ a_name a = n.
Proof.
  intros H. apply find_some in H. destruct H as [Ha Hn]. apply String.eqb_eq in Hn. split; assumption.
Qed.

Lemma find_assign_Some o n :
  In n (map a_name (assigns o)) -> exists a, find_assign o n = Some a /\ a_name a = n /\ In a (assigns o).
Proof.
  intros H. apply in_map_iff in H. destruct H as [a0 [E H]]. destruct (find_assign o n) as [a|] eqn:Ef.
  - destruct (find_assign_In o n a Ef). exists a. auto.
  - pose proof (find_none _ _ Ef a0 H) as Hc. simpl in Hc. rewrite E, String.eqb_refl in Hc. discriminate.
Qed.

Lemma find_assign_None o n : ~ In n (map a_name (assigns o)) -> find_assign o n = None.
Proof.
  intros H. destruct (find_assign o n) as [a|] eqn:Ef; [|reflexivity].
  destruct (find_assign_In o n a Ef) as [Ha Hn]. destruct H. rewrite <- Hn. exact (in_map a_name _ _ Ha).
Qed.

Lemma find_unique o a :
  NoDup (map a_name (assigns o)) -> In a (assigns o) -> find_assign o (a_name a) = Some a.
Proof.
  intros Hnd Ha. destruct (find_assign_Some o (a_name a) (in_map a_name _ a Ha)) as (b & -> & E & Hb).
  f_equal. exact (NoDup_map_inj a_name _ b a Hnd Hb Ha E).
Qed.

Lemma all_assign_names_perm o : Permutation (map a_name (assigns o)) (all_assign_names o).
Proof. unfold assigns. rewrite map_app. apply Permutation_app; apply sort_names_perm. Qed.

Lemma all_assign_names_In o n : In n (all_assign_names o) <-> In n (map a_name (assigns o)).
Proof. symmetry. apply (Permutation_in' eq_refl), all_assign_names_perm. Qed.

Lemma missing_names_spec o x :
  In x (missing_names o) <->
  (exists a, In a (assigns o) /\ In x (vars (a_expr a))) /\ known_symbol o x = false.
Proof.
  unfold missing_names.
  eapply iff_trans; [apply sort_names_In|]. eapply iff_trans; [apply dedup_In|]. eapply iff_trans; [apply filter_In|].
  eapply iff_trans; [apply and_iff_compat_r, in_flat_map|]. apply and_iff_compat_l, negb_true_iff.
Qed.

Lemma known_symbol_eq o x : known_symbol o x = mem x (all_names o) || reserved_time x.
Proof.
  unfold known_symbol, all_names, reserved_time.
  (* the case analysis is several times dearer to check with the two string literals in the goal *)
  generalize (String.eqb x "time") (String.eqb x "t"). intros b c. rewrite !mem_app.
  destruct (mem x (map d_name (o_params o))), (mem x (map d_name (o_states o))), (mem x (map a_name (assigns o)));
    cbn [orb]; try reflexivity. apply orb_comm.
Qed.

Lemma all_names_In o x :
  In x (all_names o) <->
  In x (map d_name (o_states o)) \/ In x (map d_name (o_params o)) \/ In x (map a_name (assigns o)).
Proof. unfold all_names. eapply iff_trans; [apply in_app_iff|]. apply or_iff_compat_l, in_app_iff. Qed.

Lemma known_symbol_iff o x :
  known_symbol o x = true <->
  In x (map d_name (o_states o)) \/ In x (map d_name (o_params o)) \/ In x (map a_name (assigns o))
  \/ reserved_time x = true.
Proof.
  rewrite known_symbol_eq. eapply iff_trans; [apply orb_true_iff|].
  eapply iff_trans; [apply or_iff_compat_r; eapply iff_trans; [apply mem_In|apply all_names_In]|].
  eapply iff_trans; [apply or_assoc|]. apply or_iff_compat_l, or_assoc.
Qed.

Lemma sorted_names_true o :
  sorted_names o true =
  match sorted_names o false with
  | Some l => Some (filter (fun n => negb (is_inter_name o n) || used o n) l)
  | None => None
  end.
Proof. unfold sorted_names. destruct (static_order _); reflexivity. Qed.

Lemma state_names_In o x : In x (state_names o) <-> In x (map d_name (o_states o)).
Proof. apply sort_names_In. Qed.

Lemma param_names_In o x : In x (param_names o) <-> In x (map d_name (o_params o)).
Proof. apply sort_names_In. Qed.

Lemma nodupb_NoDup l : nodupb l = true -> NoDup l.
Proof.
  intros H. apply Nat.eqb_eq in H.
  apply (NoDup_incl_NoDup (dedup_NoDup l)); [rewrite H; apply le_n|]. intros x. apply dedup_In.
Qed.

Lemma build_graph_is_build o names : build_graph o names = build (deps_of o) names [].
Proof. reflexivity. Qed.

Lemma filter_topo (f : string -> bool) (R : string -> string -> Prop) ord0 :
  NoDup ord0 ->
  (forall pre n post, ord0 = pre ++ n :: post -> forall d, R n d -> In d pre) ->
  forall pre n post, filter f ord0 = pre ++ n :: post ->
    forall d, R n d -> f d = true -> In d pre.
Proof.
  intros _ H0 pre n post E d HR Hf.
  destruct (filter_split f ord0 pre n post E) as (p0 & q0 & E0 & <-).
  apply filter_In. split; [exact (H0 p0 n q0 E0 d HR)|exact Hf].
Qed.

Lemma deps_of_In o n a d : find_assign o n = Some a -> In d (deps_of o n) <-> In d (vars (a_expr a)).
Proof. intros H. unfold deps_of, adeps. rewrite H, sort_names_In. apply dedup_In. Qed.

Lemma deps_are_read o n d :
  In d (deps_of o n) -> exists a, In a (assigns o) /\ a_name a = n /\ In d (vars (a_expr a)).
Proof.
  destruct (find_assign o n) as [a|] eqn:E; [|unfold deps_of; rewrite E; intros []].
  intros Hd. destruct (find_assign_In o n a E) as [Ha Hn]. exists a. split; [exact Ha|]. split; [exact Hn|].
  apply (deps_of_In o n a d E). exact Hd.
Qed.

Lemma dep_is_used o n d : In d (deps_of o n) -> used o d = true.
Proof.
  intros H. destruct (deps_are_read o n d H) as (a & Ha & _ & Hd).
  apply existsb_exists. exists a. split; [exact Ha|]. apply mem_In. exact Hd.
Qed.

Definition kept (o : ode) (ru : bool) (n : string) : bool :=
  mem n (all_assign_names o) && (negb ru || negb (is_inter_name o n) || used o n).

Lemma kept_iff o ru n :
  kept o ru n = true <->
  In n (all_assign_names o) /\ (ru = false \/ is_inter_name o n = false \/ used o n = true).
Proof.
  unfold kept. split.
  - intros [H1 H2]%andb_prop. split; [apply mem_In, H1|].
    destruct ru; [|left; reflexivity]. destruct (is_inter_name o n); [|right; left; reflexivity]. right. right. exact H2.
  - intros [H1 H2]. apply andb_true_intro. split; [apply mem_In, H1|].
    destruct H2 as [->|[->| ->]]; cbn [negb]; rewrite ?orb_true_r; reflexivity.
Qed.

Lemma sorted_names_filter o ru :
  sorted_names o ru
  = option_map (filter (kept o ru)) (static_order (build (deps_of o) (all_assign_names o) [])).
Proof.
  unfold sorted_names. rewrite build_graph_is_build. destruct (static_order _); [|reflexivity].
  unfold kept. destruct ru; cbn [option_map negb orb]; [rewrite filter_filter; reflexivity|].
  f_equal. apply filter_ext. intros n. rewrite andb_true_r. reflexivity.
Qed.

Theorem sorted_names_sound o ru ord :
  sorted_names o ru = Some ord ->
  NoDup ord
  /\ (forall n, In n ord -> In n (all_assign_names o))
  /\ (forall n, In n (all_assign_names o) ->
        ru = false \/ is_inter_name o n = false \/ used o n = true -> In n ord)
  /\ (forall pre n post, ord = pre ++ n :: post ->
        forall d, In d (deps_of o n) -> In d (all_assign_names o) -> In d pre).
Proof.
  rewrite sorted_names_filter.
  destruct (static_order _) as [ord0|] eqn:E0; [|discriminate]. intros H. injection H as <-.
  destruct (build_order_sound _ _ _ E0) as (Hnd & Hall & Htopo).
  split; [apply NoDup_filter; exact Hnd|]. split; [|split].
  - intros n Hn. apply filter_In in Hn. apply (kept_iff o ru n), Hn.
  - intros n Hn Hc. apply filter_In. split; [exact (Hall n Hn)|]. apply kept_iff. split; assumption.
  - intros pre n post E d Hd Hdn.
    apply (filter_topo (kept o ru) (fun n d => In n (all_assign_names o) /\ In d (deps_of o n)) ord0 Hnd)
      with (n := n) (post := post); [|exact E| |].
    + intros pre0 n0 post0 E' d0 [H1 H2]. exact (Htopo pre0 n0 post0 E' H1 d0 H2).
    + split; [|exact Hd]. apply (kept_iff o ru n). eapply proj2, filter_In. rewrite E. apply in_elt.
    + apply kept_iff. split; [exact Hdn|]. right. right. exact (dep_is_used o n d Hd).
Qed.

(* ODE.sorted_assignments returns an order exactly when the assignments can be ranked so that every
   assignment ranks above everything it reads, i.e. exactly when the definitions are acyclic; in
   particular the outcome does not depend on the order in which the assignments were written. *)
Theorem sorted_names_iff_ranked o ru :
  (exists ord, sorted_names o ru = Some ord)
  <-> exists rank : string -> nat,
        forall n d, In n (all_assign_names o) -> In d (deps_of o n) -> rank d < rank n.
Proof.
  eapply iff_trans; [|apply build_order_iff_ranked]. rewrite sorted_names_filter.
  destruct (static_order _) as [ord0|].
  - split; intros _; eexists; reflexivity.
  - split; intros [ord H]; discriminate.
Qed.

(* no assignment in an ordered model reads itself, and two assignments never read each other *)
Corollary sorted_names_acyclic2 o ru ord n m :
  sorted_names o ru = Some ord -> In n ord -> In m ord ->
  In m (deps_of o n) -> In n (deps_of o m) -> False.
Proof.
  intros H Hn Hm Hnm Hmn.
  destruct (proj1 (sorted_names_iff_ranked o ru) (ex_intro _ ord H)) as [rank Hr].
  destruct (sorted_names_sound o ru ord H) as (_ & Hin & _).
  exact (Nat.lt_asymm _ _ (Hr n m (Hin n Hn) Hnm) (Hr m n (Hin m Hm) Hmn)).
Qed.

(* a model whose assignments only read earlier lines of some listing of them is always ordered *)
Corollary listed_in_dependency_order_is_sorted o ru (listing : list string) :
  NoDup listing ->
  (forall n, In n (all_assign_names o) -> In n listing) ->
  (forall pre n post, listing = pre ++ n :: post -> In n (all_assign_names o) ->
     forall d, In d (deps_of o n) -> In d (all_assign_names o) -> In d pre) ->
  exists ord, sorted_names o ru = Some ord.
Proof.
  intros Hnd Hall Hpre. apply sorted_names_iff_ranked.
  exists (fun x => if mem x (all_assign_names o) then S (pos listing x) else 0).
  intros n d Hn Hd. rewrite (proj2 (mem_In n _) Hn).
  destruct (in_split n listing (Hall n Hn)) as [pre [post E]].
  destruct (mem d (all_assign_names o)) eqn:Emd; [|apply Nat.lt_0_succ]. apply mem_In in Emd.
  apply -> Nat.succ_lt_mono. exact (pos_lt listing pre post n d Hnd E (Hpre pre n post E Hn d Hd Emd)).
Qed.
