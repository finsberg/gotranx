(* Base.v — what every other file builds on: identifiers (strings, with a few facts about String.append);
   lists of names with membership, association lists and positions (mem, lookup, index_of); Python's sorted(),
   set() and enumerate() on them (sort_names; dedup, an instance of dedup_by: sets as lists for any boolean
   equality; enum_from), each with the lemmas that characterise it; and, at the end, facts about lists in general
   (NoDup, filter, forallb, Permutation, fold_left) that the standard library of 8.16 lacks.
   Part of the Gallina model of finsberg/gotranx (see /verif/DESIGN.md). *)
From Coq Require Export String List Bool Arith.
From Coq Require Import Sorting.Mergesort Orders Permutation.
Export ListNotations.
Open Scope string_scope.
Open Scope list_scope.

Definition ident := string.

Lemma length_append a b : String.length (String.append a b) = String.length a + String.length b.
Proof. induction a as [|c a IH]; cbn [append String.length]; [reflexivity|rewrite IH; reflexivity]. Qed.

Lemma append_assoc a b c : String.append (String.append a b) c = String.append a (String.append b c).
Proof. induction a as [|x a IH]; cbn [append]; [reflexivity|rewrite IH; reflexivity]. Qed.

Lemma append_nil_r s : String.append s "" = s.
Proof. induction s as [|c s IH]; cbn [append]; [reflexivity|rewrite IH; reflexivity]. Qed.

Lemma append_inj_r a b suf : String.append a suf = String.append b suf -> a = b.
Proof.
  revert b. induction a as [|c a IH]; intros [|d b] H; [reflexivity| | |].
  (* one of a, b empty: the lengths differ *)
  1,2: apply (f_equal String.length) in H; cbn [String.append String.length] in H; rewrite length_append in H.
  - case (Nat.succ_add_discr _ _ H).
  - symmetry in H. case (Nat.succ_add_discr _ _ H).
  - cbn [String.append] in H. injection H as -> H. rewrite (IH b H). reflexivity.
Qed.

Lemma substring_all s : substring 0 (String.length s) s = s.
Proof. induction s as [|c s IH]; simpl; [reflexivity|]. f_equal. exact IH. Qed.

Lemma substring_app s : forall i a b,
  substring i (a + b) s = String.append (substring i a s) (substring (i + a) b s).
Proof.
  induction s as [|c s IH]; intros i a b.
  - destruct i, a, b; reflexivity.
  - destruct i as [|i]; [destruct a as [|a]|]; simpl; [reflexivity|f_equal|]; apply IH.
Qed.

Fixpoint mem (x : string) (l : list string) : bool :=
  match l with
  | [] => false
  | y :: l' => if String.eqb x y then true else mem x l'
  end.

Lemma mem_In x l : mem x l = true <-> In x l.
Proof.
  induction l as [|y l IH]; simpl.
  - split; [discriminate | tauto].
  - destruct (String.eqb_spec x y) as [->|Hne].
    + split; auto.
    + rewrite IH. split; [auto|]. intros [H|H]; [congruence|exact H].
Qed.

Lemma mem_false_In x l : mem x l = false <-> ~ In x l.
Proof.
  rewrite <- mem_In. destruct (mem x l); split; congruence.
Qed.

Lemma mem_cons k p D : mem k (p :: D) = if String.eqb k p then true else mem k D.
Proof. reflexivity. Qed.

Lemma mem_app x l1 l2 : mem x (l1 ++ l2) = mem x l1 || mem x l2.
Proof. induction l1 as [|y l1 IH]; simpl; [reflexivity|]. rewrite IH. destruct (String.eqb x y); reflexivity. Qed.

Lemma mem_ext k l l' : (forall x, In x l <-> In x l') -> mem k l = mem k l'.
Proof. intros H. apply eq_true_iff_eq. rewrite !mem_In. apply H. Qed.

Lemma forallb_mem l l' : forallb (fun x => mem x l') l = true <-> (forall x, In x l -> In x l').
Proof. eapply iff_trans; [apply forallb_forall|]. split; intros H x Hx; apply mem_In, H, Hx. Qed.

Fixpoint lookup {A} (x : string) (l : list (string * A)) : option A :=
  match l with
  | [] => None
  | (y, v) :: l' => if String.eqb x y then Some v else lookup x l'
  end.

Definition keys {A} (l : list (string * A)) : list string := map fst l.

Lemma lookup_Some_In {A} x (v : A) l : lookup x l = Some v -> In (x, v) l.
Proof.
  induction l as [|[y w] l IH]; simpl; [discriminate|].
  destruct (String.eqb_spec x y) as [->|Hne].
  - intros [= ->]. auto.
  - auto.
Qed.

Lemma lookup_NoDup_In {A} k (i : A) g : NoDup (keys g) -> In (k, i) g -> lookup k g = Some i.
Proof.
  unfold keys. induction g as [|[k' i'] g IH]; simpl; intros Hnd Hin; [destruct Hin|].
  apply NoDup_cons_iff in Hnd. destruct Hnd as [Hk Hnd']. destruct Hin as [E|Hin].
  - injection E as -> ->. rewrite String.eqb_refl. reflexivity.
  - destruct (String.eqb_spec k k') as [->|Hne]; [|apply IH; assumption].
    destruct Hk. exact (in_map fst _ _ Hin).
Qed.

Lemma lookup_keys {A} (l : list (string * A)) x v : lookup x l = Some v -> In x (keys l).
Proof. intros H. apply lookup_Some_In in H. exact (in_map fst _ _ H). Qed.

Lemma lookup_None_keys {A} x (l : list (string * A)) :
  lookup x l = None <-> ~ In x (keys l).
Proof.
  split.
  - induction l as [|[y v] l IH]; simpl; [tauto|].
    destruct (String.eqb_spec x y) as [->|Hne]; [discriminate|]. intros H [H1|H1]; [congruence|exact (IH H H1)].
  - intros H. destruct (lookup x l) as [v|] eqn:E; [|reflexivity]. destruct H. exact (lookup_keys l x v E).
Qed.

Lemma in_keys_lookup {A} (g : list (string * A)) n : In n (keys g) -> exists i, lookup n g = Some i.
Proof.
  intros H. destruct (lookup n g) eqn:E; [eauto|]. apply lookup_None_keys in E. contradiction.
Qed.

Lemma lookup_app {A} x (l1 l2 : list (string * A)) :
  lookup x (l1 ++ l2) = match lookup x l1 with Some v => Some v | None => lookup x l2 end.
Proof.
  induction l1 as [|[y v] l1 IH]; simpl; [reflexivity|].
  destruct (String.eqb x y); auto.
Qed.

Fixpoint index_of (x : string) (l : list string) : option nat :=
  match l with
  | [] => None
  | y :: l' => if String.eqb x y then Some 0
               else match index_of x l' with Some n => Some (S n) | None => None end
  end.

Lemma index_of_nth x l n :
  index_of x l = Some n -> nth_error l n = Some x.
Proof.
  revert n; induction l as [|y l IH]; simpl; intros n; [discriminate|].
  destruct (String.eqb_spec x y) as [->|Hne].
  - intros [= <-]. reflexivity.
  - destruct (index_of x l) as [m|]; [|discriminate].
    intros [= <-]. simpl. auto.
Qed.

Lemma index_of_None x l : index_of x l = None <-> ~ In x l.
Proof.
  split.
  - induction l as [|y l IH]; simpl; [tauto|].
    destruct (String.eqb_spec x y) as [->|Hne]; [discriminate|]. destruct (index_of x l); [discriminate|].
    intros _ [H|H]; [congruence|exact (IH eq_refl H)].
  - intros H. destruct (index_of x l) as [n|] eqn:E; [|reflexivity].
    destruct H. exact (nth_error_In l n (index_of_nth x l n E)).
Qed.

Lemma index_of_lt x l n : index_of x l = Some n -> n < length l.
Proof.
  intros H. apply index_of_nth in H. apply nth_error_Some. congruence.
Qed.

Lemma index_of_inj x y l n :
  index_of x l = Some n -> index_of y l = Some n -> x = y.
Proof.
  intros Hx Hy. apply index_of_nth in Hx. apply index_of_nth in Hy. congruence.
Qed.

Lemma NoDup_index_of l n x :
  NoDup l -> nth_error l n = Some x -> index_of x l = Some n.
Proof.
  revert n; induction l as [|y l IH]; intros n Hnd Hn.
  - destruct n; discriminate.
  - apply NoDup_cons_iff in Hnd as [Hni Hnd']. destruct n as [|n]; simpl in *.
    + injection Hn as ->. rewrite String.eqb_refl. reflexivity.
    + destruct (String.eqb_spec x y) as [->|Hne].
      * exfalso. apply Hni. eapply nth_error_In; eauto.
      * rewrite (IH n Hnd' Hn). reflexivity.
Qed.

(* positions in a duplicate-free order are a ranking of it *)
Definition pos (ord : list string) (x : string) : nat :=
  match index_of x ord with Some i => i | None => 0 end.

Lemma pos_lt (ord pre post : list string) n d :
  NoDup ord -> ord = pre ++ n :: post -> In d pre -> pos ord d < pos ord n.
Proof.
  intros Hnd E Hd. apply in_split in Hd. destruct Hd as [p1 [p2 Ep]]. unfold pos.
  rewrite (NoDup_index_of ord (length pre) n Hnd), (NoDup_index_of ord (length p1) d Hnd).
  - rewrite Ep, app_length. apply Nat.lt_add_pos_r, Nat.lt_0_succ.
  - rewrite E, Ep, <- app_assoc, nth_error_app2, Nat.sub_diag; [reflexivity|apply le_n].
  - rewrite E, nth_error_app2, Nat.sub_diag; [reflexivity|apply le_n].
Qed.

(* Python's sorted() on identifiers: code-point order *)

Module StringOrder <: TotalLeBool.
  Definition t := string.
  Definition leb := String.leb.
  Theorem leb_total : forall a1 a2, leb a1 a2 = true \/ leb a2 a1 = true.
  Proof. exact String.leb_total. Qed.
End StringOrder.

Module StringSort := Sort StringOrder.

Definition sort_names (l : list string) : list string := StringSort.sort l.

Lemma sort_names_perm l : Permutation l (sort_names l).
Proof. apply StringSort.Permuted_sort. Qed.

Lemma sort_names_In x l : In x (sort_names l) <-> In x l.
Proof. symmetry. apply (Permutation_in' eq_refl), sort_names_perm. Qed.

Lemma sort_names_NoDup l : NoDup l -> NoDup (sort_names l).
Proof. intros H. eapply Permutation_NoDup; [apply sort_names_perm | exact H]. Qed.

Lemma sort_names_length l : length (sort_names l) = length l.
Proof. symmetry. apply Permutation_length, sort_names_perm. Qed.

(* Python's sets are lists here: insertion ([add_by]) and union ([dedup_by]) for any boolean equality.  [dedup] below is
   [dedup_by String.eqb]; the loader's add_decl, dedup_decl and dedup_assign (Load.v) are instances by conversion *)
Section Eqb.
  Context {A : Type} (eqb : A -> A -> bool) (eqb_eq : forall a b, eqb a b = true <-> a = b).

  Lemma existsb_eqb_spec x l : reflect (In x l) (existsb (eqb x) l).
  Proof.
    apply iff_reflect. split.
    - intros H. apply existsb_exists. exists x. split; [exact H|apply eqb_eq; reflexivity].
    - intros H. apply existsb_exists in H. destruct H as (y & Hy & E). apply eqb_eq in E. subst y. exact Hy.
  Qed.

  Definition add_by (l : list A) (x : A) : list A := if existsb (eqb x) l then l else l ++ [x].

  Lemma add_by_In l d x : In x (add_by l d) <-> In x l \/ x = d.
  Proof.
    unfold add_by. destruct (existsb_eqb_spec d l) as [Hd|_].
    - split; [auto|intros [H| ->]; assumption].
    - eapply iff_trans; [apply in_app_iff|]. simpl. split; [intros [H|[<-|[]]]|intros [H| ->]]; auto.
  Qed.

  Lemma add_by_NoDup l d : NoDup l -> NoDup (add_by l d).
  Proof.
    intros H. unfold add_by. destruct (existsb_eqb_spec d l) as [_|Hd]; [exact H|].
    apply (Permutation_NoDup (Permutation_cons_append l d)). constructor; assumption.
  Qed.

  (* the first of equal elements goes *)
  Fixpoint dedup_by (l : list A) : list A :=
    match l with
    | [] => []
    | x :: l' => if existsb (eqb x) l' then dedup_by l' else x :: dedup_by l'
    end.

  Lemma dedup_by_In l x : In x (dedup_by l) <-> In x l.
  Proof.
    induction l as [|d l IH]; simpl; [tauto|]. destruct (existsb_eqb_spec d l) as [Hd|_].
    - split; [intros H; right; apply IH, H|intros [<-|H]; apply IH; assumption].
    - apply or_iff_compat_l, IH.
  Qed.

  Lemma dedup_by_NoDup l : NoDup (dedup_by l).
  Proof.
    induction l as [|d l IH]; simpl; [constructor|]. destruct (existsb_eqb_spec d l) as [_|Hd]; [exact IH|].
    constructor; [|exact IH]. intros H. apply Hd, dedup_by_In, H.
  Qed.

  Lemma dedup_by_perm l l' : (forall x, In x l <-> In x l') -> Permutation (dedup_by l) (dedup_by l').
  Proof.
    intros H. apply NoDup_Permutation; [apply dedup_by_NoDup..|].
    intros x. eapply iff_trans; [apply dedup_by_In|]. eapply iff_trans; [apply H|]. symmetry. apply dedup_by_In.
  Qed.
End Eqb.

(* remove duplicates (Python: a set holds an element once); of equal elements the last one stays, which matters
   only where the order of the result is read: elsewhere it is sorted or asked for membership *)
Fixpoint dedup (l : list string) : list string :=
  match l with
  | [] => []
  | x :: l' => if mem x l' then dedup l' else x :: dedup l'
  end.

Lemma mem_existsb x l : mem x l = existsb (String.eqb x) l.
Proof. induction l as [|y l IH]; cbn [mem existsb]; [reflexivity|]. rewrite IH. reflexivity. Qed.

Lemma dedup_by_eqb l : dedup l = dedup_by String.eqb l.
Proof. induction l as [|x l IH]; cbn [dedup dedup_by]; [reflexivity|]. rewrite mem_existsb, IH. reflexivity. Qed.

Lemma dedup_In x l : In x (dedup l) <-> In x l.
Proof. rewrite dedup_by_eqb. apply dedup_by_In, String.eqb_eq. Qed.

Lemma dedup_NoDup l : NoDup (dedup l).
Proof. rewrite dedup_by_eqb. apply dedup_by_NoDup, String.eqb_eq. Qed.

(* Python's enumerate(l, start = n) *)
Fixpoint enum_from {A} (n : nat) (l : list A) : list (nat * A) :=
  match l with
  | [] => []
  | x :: l' => (n, x) :: enum_from (S n) l'
  end.
Definition enumerate {A} (l : list A) := enum_from 0 l.

Lemma sub_lt_S n i : n < i -> i - n = S (i - S n).
Proof. intros H. rewrite <- Nat.sub_succ_l by exact H. reflexivity. Qed.

Lemma enum_from_nth {A} (l : list A) n i x :
  In (i, x) (enum_from n l) <-> (n <= i /\ nth_error l (i - n) = Some x).
Proof.
  revert n; induction l as [|y l IH]; intros n; simpl.
  - split; [intros []|]. intros [_ H]. destruct (i - n); discriminate.
  - split.
    + intros [[= <- <-]|H].
      * rewrite Nat.sub_diag. split; [apply le_n|reflexivity].
      * apply IH in H as [Hlt Hn]. rewrite (sub_lt_S n i Hlt). split; [apply Nat.lt_le_incl, Hlt|exact Hn].
    + intros [Hle Hn]. apply Nat.lt_eq_cases in Hle as [Hlt|<-].
      * right. apply IH. rewrite (sub_lt_S n i Hlt) in Hn. split; [exact Hlt|exact Hn].
      * left. rewrite Nat.sub_diag in Hn. injection Hn as <-. reflexivity.
Qed.

Lemma enumerate_nth {A} (l : list A) i x :
  In (i, x) (enumerate l) <-> nth_error l i = Some x.
Proof.
  unfold enumerate. split; intros H.
  - apply enum_from_nth in H as [_ H]. rewrite Nat.sub_0_r in H. exact H.
  - apply enum_from_nth. rewrite Nat.sub_0_r. split; [apply Nat.le_0_l|exact H].
Qed.

Lemma map_snd_enum_from {A} (l : list A) : forall n, map snd (enum_from n l) = l.
Proof. induction l as [|x l IH]; intros n; simpl; [reflexivity|]. rewrite IH. reflexivity. Qed.

Lemma andb_iff (b c : bool) (P Q : Prop) : (b = true <-> P) -> (c = true <-> Q) -> (b && c = true <-> P /\ Q).
Proof.
  intros [P1 P2] [Q1 Q2]. split.
  - intros H. apply andb_prop in H. split; [apply P1|apply Q1]; apply H.
  - intros [p q]. rewrite (P2 p), (Q2 q). reflexivity.
Qed.

Lemma and_iff (A B C D : Prop) : (A <-> B) -> (C <-> D) -> (A /\ C <-> B /\ D).
Proof. intros [ab ba] [cd dc]. split; intros [x y]; auto. Qed.

Lemma in_app_iff2 {T} (x : T) l1 l2 (P1 P2 : Prop) :
  (In x l1 <-> P1) -> (In x l2 <-> P2) -> (In x (l1 ++ l2) <-> P1 \/ P2).
Proof.
  intros H1 H2. split.
  - intros H. apply in_app_or in H. destruct H as [H|H]; [left; apply H1|right; apply H2]; exact H.
  - intros [H|H]; apply in_or_app; [left; apply H1|right; apply H2]; exact H.
Qed.

Lemma nth_error_some_lt {A} (l : list A) i : i < length l -> exists v, nth_error l i = Some v.
Proof.
  intros H. apply nth_error_Some in H. destruct (nth_error l i); [eauto|contradiction].
Qed.

Lemma list_eq_nth {A} (l1 l2 : list A) :
  length l1 = length l2 -> (forall i, i < length l1 -> nth_error l1 i = nth_error l2 i) -> l1 = l2.
Proof.
  revert l2; induction l1 as [|x l1 IH]; intros [|y l2] Hl H; try discriminate; [reflexivity|].
  injection Hl as Hl. injection (H 0 (Nat.lt_0_succ _)) as ->. apply f_equal.
  apply IH; [exact Hl|]. intros i Hi. exact (H (S i) (proj1 (Nat.succ_lt_mono _ _) Hi)).
Qed.

Lemma NoDup_app_intro {A} (l1 l2 : list A) :
  NoDup l1 -> NoDup l2 -> (forall x, In x l1 -> ~ In x l2) -> NoDup (l1 ++ l2).
Proof.
  induction l1 as [|a l1 IH]; intros H1 H2 Hd; simpl; [exact H2|].
  apply NoDup_cons_iff in H1 as [Ha H1']. constructor.
  - intros Hc. apply in_app_or in Hc as [Hc|Hc]; [contradiction|].
    apply (Hd a (or_introl eq_refl) Hc).
  - apply IH; [exact H1'|exact H2|]. intros x Hx. apply Hd. right. exact Hx.
Qed.

Lemma NoDup_app_elim {A} (l1 l2 : list A) :
  NoDup (l1 ++ l2) -> NoDup l1 /\ NoDup l2 /\ (forall x, In x l1 -> ~ In x l2).
Proof.
  induction l1 as [|a l1 IH]; simpl; intros H.
  - split; [constructor|]. split; [exact H|]. intros x [].
  - apply NoDup_cons_iff in H as [Ha H']. destruct (IH H') as (H1 & H2 & Hd). split; [|split].
    + constructor; [|exact H1]. intros Hc. apply Ha, in_or_app. left. exact Hc.
    + exact H2.
    + intros x [<-|Hx]; [|exact (Hd x Hx)]. intros Hc. apply Ha, in_or_app. right. exact Hc.
Qed.

Lemma NoDup_map_inj_on {A B} (f : A -> B) l :
  (forall x y, In x l -> In y l -> f x = f y -> x = y) -> NoDup l -> NoDup (map f l).
Proof.
  intros Hinj Hnd. induction Hnd as [|x l Hx Hnd IH]; simpl; constructor.
  - intros Hc. apply in_map_iff in Hc as (y & E & Hy).
    rewrite (Hinj y x (or_intror Hy) (or_introl eq_refl) E) in Hy. contradiction.
  - apply IH. intros a b Ha Hb. apply Hinj; right; assumption.
Qed.

Lemma NoDup_map_inj {A B} (f : A -> B) l x y : NoDup (map f l) -> In x l -> In y l -> f x = f y -> x = y.
Proof.
  induction l as [|z l IH]; simpl; intros Hnd Hx Hy E; [destruct Hx|]. inversion Hnd as [|? ? Hz Hnd']; subst.
  destruct Hx as [->|Hx], Hy as [->|Hy].
  - reflexivity.
  - destruct Hz. rewrite E. apply in_map, Hy.
  - destruct Hz. rewrite <- E. apply in_map, Hx.
  - apply IH; assumption.
Qed.

Lemma forallb_ext' {A} (f g : A -> bool) l : (forall x, f x = g x) -> forallb f l = forallb g l.
Proof. intros H. induction l as [|x l IH]; simpl; [reflexivity|]. rewrite H, IH. reflexivity. Qed.

Lemma filter_all {A} (l : list A) : filter (fun _ => true) l = l.
Proof. induction l as [|x l IH]; simpl; [reflexivity|]. rewrite IH. reflexivity. Qed.

Lemma filter_filter {A} (f g : A -> bool) l : filter g (filter f l) = filter (fun x => f x && g x) l.
Proof.
  induction l as [|x l IH]; simpl; [reflexivity|]. destruct (f x); simpl; [destruct (g x)|]; congruence.
Qed.

Lemma filter_filter_absorb {A} (p q : A -> bool) l :
  (forall x, p x = true -> q x = true) -> filter p (filter q l) = filter p l.
Proof.
  intros H. rewrite filter_filter. apply filter_ext. intros x.
  destruct (p x) eqn:Ep; [rewrite (H x Ep); reflexivity|apply andb_false_r].
Qed.

Lemma filter_split {A} (f : A -> bool) l : forall pre n post,
  filter f l = pre ++ n :: post ->
  exists pre0 post0, l = pre0 ++ n :: post0 /\ filter f pre0 = pre.
Proof.
  induction l as [|x l IH]; intros pre n post E; cbn [filter] in E; [destruct pre; discriminate|].
  destruct (f x) eqn:Ef; [destruct pre as [|y pre]; injection E as <- E|].
  1: { exists [], l. auto. }
  (* otherwise x, kept or not, stands before n *)
  all: destruct (IH _ _ _ E) as (p0 & q0 & -> & <-); exists (x :: p0), q0; cbn [filter]; rewrite Ef; auto.
Qed.

Lemma filter_perm {A} (f : A -> bool) l l' : Permutation l l' -> Permutation (filter f l) (filter f l').
Proof.
  induction 1; simpl; auto.
  - destruct (f x); auto.
  - destruct (f x), (f y); auto. apply perm_swap.
  - eapply Permutation_trans; eauto.
Qed.

Lemma mem_perm x l l' : Permutation l l' -> mem x l = mem x l'.
Proof.
  intros H. apply mem_ext. intros y. apply (Permutation_in' eq_refl H).
Qed.

Lemma existsb_perm {A} (f : A -> bool) l l' : Permutation l l' -> existsb f l = existsb f l'.
Proof.
  induction 1; simpl; auto.
  - rewrite IHPermutation. reflexivity.
  - destruct (f x), (f y); reflexivity.
  - congruence.
Qed.

Lemma dedup_perm l l' : Permutation l l' -> Permutation (dedup l) (dedup l').
Proof.
  intros H. rewrite !dedup_by_eqb. apply (dedup_by_perm _ String.eqb_eq). intros x. apply (Permutation_in' eq_refl H).
Qed.

Lemma fold_left_prefix_inv {A B} (f : A -> B -> A) (P : list B -> A -> Prop) l a0 :
  P [] a0 ->
  (forall pre n post a, l = pre ++ n :: post -> P pre a -> P (pre ++ [n]) (f a n)) ->
  P l (fold_left f l a0).
Proof.
  intros H0 Hs.
  assert (G : forall rest pre a, l = pre ++ rest -> P pre a -> P l (fold_left f rest a)).
  { induction rest as [|n rest IH]; intros pre a E Ha; simpl.
    - rewrite app_nil_r in E. subst pre. exact Ha.
    - apply (IH (pre ++ [n])); [rewrite <- app_assoc; exact E|exact (Hs pre n rest a E Ha)]. }
  exact (G l [] a0 eq_refl H0).
Qed.

(* what can be observed of a fold is what could be observed at the start or was added by a step *)
Lemma fold_left_obs {A B X} (f : A -> B -> A) (O : A -> X -> Prop) (Q : B -> X -> Prop) :
  (forall a b x, O (f a b) x <-> O a x \/ Q b x) ->
  forall l a x, O (fold_left f l a) x <-> O a x \/ exists b, In b l /\ Q b x.
Proof.
  intros H. induction l as [|b l IH]; intros a x; cbn [fold_left].
  - split; [auto|intros [Ha|(b & [] & _)]; exact Ha].
  - rewrite IH, H. split.
    + intros [[Ha|Hb]|(b' & Hb' & Hq)]; [auto|right; exists b; cbn; auto|right; exists b'; cbn; auto].
    + intros [Ha|(b' & [<-|Hb'] & Hq)]; [auto|auto|right; exists b'; auto].
Qed.
