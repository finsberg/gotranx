(* JaxNames.v — the slot variables of the jax backend.  codegen/jax.py prints the statement
     values[i] = e      as      _values_i = e
   and the function ends with  return numpy.array([_values_0, ..., _values_{n-1}]).  The slot variables
   live in the same namespace as the names of the body, so a name of the form _values_<digits> there could
   capture a slot or be captured by one.  What is proved assumes [slot_free]: no name the body binds or reads
   (unpacked, let-bound, or occurring in an expression) is a slot name.  Then running the renamed body (lets
   only) and reading the slot variables off the final environment returns exactly what the array semantics
   returns - for any number of slots, in particular for monitor_values and missing_values, which may use more
   slots than there are states.
   What gotranx gives of [slot_free]: CodeGenerator._check_names (codegen/base.py) refuses a model one of whose
   own names - states, parameters, intermediates, state derivatives - matches the jax generator's
   reserved_pattern = ^_values_\d+$, so for the names the model owns the hypothesis holds.  That refusal does
   not give it for a name the body reads without the model owning it: a missing variable of a sub-model,
   which the expressions read and the prologue binds by  m = missing_variables[i].  _check_names does not
   look at the missing variables: a sub-model with one named _values_0 is accepted, and slot 0 of its jax
   rhs overwrites the value unpacked from missing_variables[0] before a later expression reads it.
   [slot] is any injective naming of the slots; [slot_name] is the concrete one. *)
From GX Require Import Base Expr Ode Target Sem Valid Jax Carriers.
From Coq Require Import BinIntDef.   (* the Z numerals of the last example *)
From Coq Require Import Qcanon.
From Coq Require Import DecimalString DecimalNat.
Open Scope string_scope.
Open Scope list_scope.

Section SlotNames.
  Context {T : Type} (N : NumOps T).
  Variable slot : nat -> string.
  Hypothesis slot_inj : forall i j, slot i = slot j -> i = j.

  Definition jax_stmt (s : stmt) : stmt :=
    match s with
    | SStore i e => SLet (slot i) e
    | _ => s
    end.
  Definition jax_body (body : list stmt) : list stmt := map jax_stmt body.

  (* numpy.array([_values_0, ..., _values_{n-1}]): a NameError if one of them was never assigned *)
  Definition jax_return (nret : nat) (rho : env T) : option (list T) :=
    if forallb (fun i => match lookup (slot i) rho with Some _ => true | None => false end) (seq 0 nret)
    then Some (map (fun i => env_fun N rho (slot i)) (seq 0 nret))
    else None.

  Definition exec_jax_names (f : func) (with_dt : bool) (inp : inputs T) : option (list T) :=
    match run N (f_nret f) inp (env0 inp with_dt, []) (jax_body (f_body f)) with
    | Some (rho, _) => jax_return (f_nret f) rho
    | None => None
    end.

  Definition stmt_names (s : stmt) : list string :=
    match s with
    | SUnpackS x _ | SUnpackP x _ | SUnpackM x _ => [x]
    | SLet x e => x :: vars e
    | SStore _ e => vars e
    end.
  Definition not_slot (x : string) : Prop := forall i, x <> slot i.
  Definition slot_free (body : list stmt) : Prop :=
    forall s x, In s body -> In x (stmt_names s) -> not_slot x.

  (* the renamed run carries the array in its environment *)
  Definition Sim (rho : env T) (vals : list (nat * T)) (rho' : env T) : Prop :=
    (forall x, not_slot x -> lookup x rho' = lookup x rho)
    /\ (forall i, lookup (slot i) rho' = lookup_nat i vals).

  Lemma bound_sim rho vals rho' e :
    Sim rho vals rho' -> (forall x, In x (vars e) -> not_slot x) -> bound rho' e = bound rho e.
  Proof.
    intros [H1 _]. unfold bound. induction (vars e) as [|x l IH]; intros Hl; [reflexivity|].
    cbn [forallb]. rewrite (H1 x (Hl x (or_introl eq_refl))), IH; [reflexivity|]. intros y Hy. apply Hl. right. exact Hy.
  Qed.

  Lemma eval_sim rho vals rho' e :
    Sim rho vals rho' -> (forall x, In x (vars e) -> not_slot x) ->
    eval N (env_fun N rho') e = eval N (env_fun N rho) e.
  Proof.
    intros [H1 _] Hv. apply eval_ext. intros x Hx. unfold env_fun. rewrite (H1 x (Hv x Hx)). reflexivity.
  Qed.

  Lemma sim_bind rho vals rho' x v :
    not_slot x -> Sim rho vals rho' -> Sim ((x, v) :: rho) vals ((x, v) :: rho').
  Proof.
    intros Hx [H1 H2]. split.
    - intros y Hy. cbn [lookup]. destruct (String.eqb y x); [reflexivity|apply H1; exact Hy].
    - intros i. cbn [lookup]. destruct (String.eqb_spec (slot i) x) as [E|_]; [|apply H2].
      exfalso. exact (Hx i (eq_sym E)).
  Qed.

  Lemma sim_store rho vals rho' i v :
    Sim rho vals rho' -> Sim rho ((i, v) :: vals) ((slot i, v) :: rho').
  Proof.
    intros [H1 H2]. split.
    - intros y Hy. cbn [lookup]. destruct (String.eqb_spec y (slot i)) as [E|_]; [|apply H1; exact Hy].
      exfalso. exact (Hy i E).
    - intros j. cbn [lookup lookup_nat].
      destruct (String.eqb_spec (slot j) (slot i)) as [E|Hne].
      + apply slot_inj in E. subst j. rewrite Nat.eqb_refl. reflexivity.
      + destruct (Nat.eqb_spec j i) as [->|_]; [contradiction|apply H2].
  Qed.

  (* the statements that bind a name, with the value (if any) they bind it to left open *)
  Lemma bind_step_sim rho (vals vals' : list (nat * T)) rho' x (ov : option T) rho1 vals1 :
    not_slot x -> Sim rho vals rho' ->
    option_map (fun v => ((x, v) :: rho, vals)) ov = Some (rho1, vals1) ->
    exists rho1', option_map (fun v => ((x, v) :: rho', vals')) ov = Some (rho1', vals') /\ Sim rho1 vals1 rho1'.
  Proof.
    intros Hx HS. destruct ov as [v|]; [intros [= <- <-]|discriminate].
    eexists. split; [reflexivity|]. apply sim_bind; assumption.
  Qed.

  Lemma step_sim nret inp rho vals rho' vals' s rho1 vals1 :
    (forall x, In x (stmt_names s) -> not_slot x) ->
    Sim rho vals rho' ->
    step N nret inp (rho, vals) s = Some (rho1, vals1) ->
    exists rho1', step N nret inp (rho', vals') (jax_stmt s) = Some (rho1', vals') /\ Sim rho1 vals1 rho1'.
  Proof.
    intros Hn HS. destruct s as [x i|x i|x i|x e|i e]; cbn [step jax_stmt].
    1-3: exact (bind_step_sim rho vals vals' rho' x (nth_error _ i) rho1 vals1 (Hn x (or_introl eq_refl)) HS).
    - assert (Hv : forall y, In y (vars e) -> not_slot y) by (intros y Hy; apply Hn; right; exact Hy).
      rewrite (bound_sim rho vals rho' e HS Hv), (eval_sim rho vals rho' e HS Hv).
      case (bound rho e); [|discriminate].
      exact (bind_step_sim rho vals vals' rho' x (Some _) rho1 vals1 (Hn x (or_introl eq_refl)) HS).
    - rewrite (bound_sim rho vals rho' e HS Hn), (eval_sim rho vals rho' e HS Hn).
      case (bound rho e); [|discriminate]. case (Nat.ltb i nret); [intros Hstep|discriminate].
      eexists. split; [reflexivity|]. injection Hstep as <- <-. apply sim_store. exact HS.
  Qed.

  Lemma run_sim nret inp body : forall rho vals rho' vals' rho2 vals2,
    slot_free body -> Sim rho vals rho' ->
    run N nret inp (rho, vals) body = Some (rho2, vals2) ->
    exists rho2', run N nret inp (rho', vals') (jax_body body) = Some (rho2', vals') /\ Sim rho2 vals2 rho2'.
  Proof.
    induction body as [|s body IH]; intros rho vals rho' vals' rho2 vals2 Hf HS Hrun; cbn [run jax_body map] in *.
    - injection Hrun as <- <-. eexists. split; [reflexivity|exact HS].
    - destruct (step N nret inp (rho, vals) s) as [[rho1 vals1]|] eqn:Es; [|discriminate].
      destruct (step_sim nret inp rho vals rho' vals' s rho1 vals1
                  (fun x Hx => Hf s x (or_introl eq_refl) Hx) HS Es) as (rho1' & Es' & HS1).
      rewrite Es'. apply (IH rho1 vals1 rho1' vals' rho2 vals2); [|exact HS1|exact Hrun].
      intros s0 x Hs0 Hx. exact (Hf s0 x (or_intror Hs0) Hx).
  Qed.

  Lemma return_sim nret rho vals rho' :
    Sim rho vals rho' -> all_assigned nret vals = true -> jax_return nret rho' = Some (result N nret vals).
  Proof.
    intros [_ H2] Ha. unfold jax_return, all_assigned in *.
    assert (Hb : forallb (fun i => match lookup (slot i) rho' with Some _ => true | None => false end) (seq 0 nret) = true).
    { rewrite forallb_forall in *. intros i Hi. rewrite (H2 i). exact (Ha i Hi). }
    rewrite Hb. apply f_equal. unfold result. apply map_ext. intros i. unfold env_fun. rewrite (H2 i). reflexivity.
  Qed.

  Theorem jax_slot_variables_are_the_array f wd inp out :
    slot_free (f_body f) ->
    (forall i, lookup (slot i) (env0 inp wd) = None) ->
    exec_jax N f wd inp = Some out -> exec_jax_names f wd inp = Some out.
  Proof.
    intros Hf H0 He. unfold exec_jax in He. unfold exec_jax_names.
    destruct (run N (f_nret f) inp (env0 inp wd, []) (f_body f)) as [[rho vals]|] eqn:Er; [|discriminate].
    destruct (all_assigned (f_nret f) vals) eqn:Ea; [|discriminate]. injection He as <-.
    assert (HS0 : Sim (env0 inp wd) [] (env0 inp wd)).
    { split; [reflexivity|]. intros i. rewrite (H0 i). reflexivity. }
    destruct (run_sim (f_nret f) inp (f_body f) _ _ _ [] rho vals Hf HS0 Er) as (rho' & Er' & HS).
    rewrite Er'. apply (return_sim (f_nret f) rho vals rho' HS Ea).
  Qed.
End SlotNames.

Definition slot_name (i : nat) : string := String.append "_values_" (NilEmpty.string_of_uint (Nat.to_uint i)).

Lemma append_inj_l (p a b : string) : String.append p a = String.append p b -> a = b.
Proof. induction p as [|c p IH]; simpl; intros H; [exact H|]. injection H as H. exact (IH H). Qed.

Lemma slot_name_inj i j : slot_name i = slot_name j -> i = j.
Proof.
  unfold slot_name. intros H. apply append_inj_l in H.
  assert (E : Some (Nat.to_uint i) = Some (Nat.to_uint j)).
  { rewrite <- (NilEmpty.usu (Nat.to_uint i)), <- (NilEmpty.usu (Nat.to_uint j)), H. reflexivity. }
  injection E as E. rewrite <- (DecimalNat.Unsigned.of_to i), <- (DecimalNat.Unsigned.of_to j), E. reflexivity.
Qed.

Lemma slot_name_not_formal {T} (inp : inputs T) wd i : lookup (slot_name i) (env0 inp wd) = None.
Proof. destruct wd; reflexivity. Qed.

Example slot_names : slot_name 0 = "_values_0" /\ slot_name 12 = "_values_12" /\ slot_name 105 = "_values_105".
Proof. repeat split. Qed.

(* C19: a validated function none of whose names, bound or read, is a slot name returns, with slot variables, the
   array of the declared length that the numpy function returns *)
Theorem jax_names_equal_numpy {T} (N : NumOps T) (o : ode) (ss : list string) (inp : inputs T) (wd : bool) f ok :
  sizes_ok o ss inp -> reserved_free o inp wd = true ->
  valid_fun o ss inp wd f ok = true ->
  slot_free slot_name (f_body f) ->
  exists out, exec_jax_names N slot_name f wd inp = Some out /\ exec N f wd inp = Some out /\ length out = f_nret f.
Proof.
  intros Hsz Hrf Hv Hf.
  destruct (jax_equals_numpy N o ss inp wd f ok Hsz Hrf Hv) as (out & Hj & Hn & Hl).
  exists out. split; [|split; assumption].
  apply (jax_slot_variables_are_the_array N slot_name slot_name_inj f wd inp out Hf).
  - intros i. apply slot_name_not_formal.
  - exact Hj.
Qed.

(* and the hypothesis is needed: a body that binds a slot name is captured (here slot 1 of a two-slot function is
   overwritten by the model's own "_values_1") *)
Example a_model_name_of_that_form_is_captured :
  let body := [SLet "a" (e_int 5); SStore 1 (EVar "a"); SLet "_values_1" (e_int 7); SStore 0 (EVar "_values_1")] in
  let f := {| f_name := "g"; f_args := []; f_nret := 2; f_body := body |} in
  let inp := {| in_t := 0%Qc; in_dt := 0%Qc; in_states := []; in_params := []; in_missing := [] |} in
  exec_jax QcOps f false inp = Some [Q2Qc (QArith_base.inject_Z 7); Q2Qc (QArith_base.inject_Z 5)]
  /\ exec_jax_names QcOps slot_name f false inp = Some [Q2Qc (QArith_base.inject_Z 7); Q2Qc (QArith_base.inject_Z 7)].
Proof. vm_compute. split; reflexivity. Qed.
