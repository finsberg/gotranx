(* Singular.v — atoms.remove_singularities: one Conditional(Eq(symbol, value), replacement, expr), the
   replacement being the limit there, per removable (non-infinite) singularity (infinite ones are left alone), combined
     - as the code does: by *summing* them (then folded by sympy.piecewise_fold), [remove_sum];
     - as the property requires: by *nesting* them, [remove_nested].
   With k removable singularities the sum counts the expression k times at every regular point.
   All of it holds in any carrier with the laws [SelLaws] of select and rel; so does
   [indicator_conditional_is_the_relation], about another use of Conditional. *)
From GX Require Import Base Expr.
From Coq Require Import QArith_base.
Close Scope Q_scope.
Open Scope string_scope.
Open Scope list_scope.

Record sing := { s_var : string; s_val : expr; s_repl : expr; s_infinite : bool }.

Definition sing_cond (s : sing) : expr := ERel Req (EVar (s_var s)) (s_val s).

Definition removable (l : list sing) : list sing := filter (fun s => negb (s_infinite s)) l.

Fixpoint sum_exprs (l : list expr) : expr :=
  match l with
  | [] => ENum 0%Q true
  | [e] => e
  | e :: l' => EAdd e (sum_exprs l')
  end.

Definition remove_sum (e : expr) (l : list sing) : expr :=
  match removable l with
  | [] => e
  | r => sum_exprs (map (fun s => ECond (sing_cond s) (s_repl s) e) r)
  end.

Fixpoint nest (e : expr) (r : list sing) : expr :=
  match r with
  | [] => e
  | s :: r' => ECond (sing_cond s) (s_repl s) (nest e r')
  end.

Definition remove_nested (e : expr) (l : list sing) : expr := nest e (removable l).

Section Meaning.
  Context {T : Type} (N : NumOps T).
  Definition zero : T := ofQ N 0%Q.
  Definition oneT : T := ofQ N 1%Q.

  Record SelLaws : Prop := {
    sel_true : forall a b, select N oneT a b = a;
    sel_false : forall a b, select N zero a b = b;
    rel_bool : forall r a b, rel N r a b = oneT \/ rel N r a b = zero }.

  Hypothesis L : SelLaws.
  Variable rho : string -> T.

  Definition hit (s : sing) : Prop := eval N rho (sing_cond s) = oneT.
  Definition miss (s : sing) : Prop := eval N rho (sing_cond s) = zero.

  Lemma nest_skip e r1 r2 :
    (forall s, In s r1 -> miss s) -> eval N rho (nest e (r1 ++ r2)) = eval N rho (nest e r2).
  Proof.
    induction r1 as [|s r1 IH]; intros H; cbn [app nest eval]; [reflexivity|].
    rewrite (H s (or_introl eq_refl)), (sel_false L). apply IH. intros s' Hs'. apply H. right. exact Hs'.
  Qed.

  Theorem nested_regular e l :
    (forall s, In s (removable l) -> miss s) -> eval N rho (remove_nested e l) = eval N rho e.
  Proof.
    intros H. unfold remove_nested. rewrite <- (app_nil_r (removable l)). exact (nest_skip e _ [] H).
  Qed.

  Theorem nested_singular e l r1 s r2 :
    removable l = r1 ++ s :: r2 -> (forall s', In s' r1 -> miss s') -> hit s ->
    eval N rho (remove_nested e l) = eval N rho (s_repl s).
  Proof.
    unfold remove_nested. intros -> Hm Hh. rewrite (nest_skip e r1 _ Hm). cbn [nest eval].
    rewrite Hh. apply (sel_true L).
  Qed.

  Theorem untouched_without_removable e l :
    removable l = [] -> remove_sum e l = e /\ remove_nested e l = e.
  Proof. unfold remove_sum, remove_nested. intros ->. split; reflexivity. Qed.

  Theorem sum_is_nested_for_one e l s : removable l = [s] -> remove_sum e l = remove_nested e l.
  Proof. unfold remove_sum, remove_nested. intros ->. reflexivity. Qed.

  (* k summands v, associated as sum_exprs associates them and without a zero, so that sum_regular needs no law of add *)
  Fixpoint times (k : nat) (v : T) : T :=
    match k with O => zero | S O => v | S k' => add N v (times k' v) end.

  Lemma sum_exprs_const es v :
    (forall e, In e es -> eval N rho e = v) -> eval N rho (sum_exprs es) = times (length es) v.
  Proof.
    induction es as [|e es IH]; intros H; [reflexivity|]. destruct es as [|e' es].
    - apply H. left. reflexivity.
    - change (sum_exprs (e :: e' :: es)) with (EAdd e (sum_exprs (e' :: es))). cbn [eval].
      rewrite (H e (or_introl eq_refl)), IH; [reflexivity|]. intros e0 H0. apply H. right. exact H0.
  Qed.

  Theorem sum_regular e l :
    removable l <> [] -> (forall s, In s (removable l) -> miss s) ->
    eval N rho (remove_sum e l) = times (length (removable l)) (eval N rho e).
  Proof.
    unfold remove_sum. destruct (removable l) as [|s r]; [congruence|]. intros _ H.
    rewrite (sum_exprs_const _ (eval N rho e)), map_length; [reflexivity|].
    intros e' He'. apply in_map_iff in He' as (s' & <- & Hs'). cbn [eval]. rewrite (H s' Hs'). apply (sel_false L).
  Qed.

  (* codegen/base.py (_doprint) and atoms.Assignment.resolve_expression write an assignment whose right-hand side is a relation
     r as the conditional  Conditional(r, 1, 0).  In every carrier with the selection laws the two have the same value. *)
  Theorem indicator_conditional_is_the_relation r a b :
    eval N rho (ECond (ERel r a b) e_one e_zero) = eval N rho (ERel r a b).
  Proof.
    cbn [eval]. destruct (rel_bool L r (eval N rho a) (eval N rho b)) as [E|E]; rewrite E.
    - apply (sel_true L).
    - apply (sel_false L).
  Qed.
End Meaning.
