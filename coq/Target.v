(* Target.v — the statement skeleton every generated function has (templates/*.py: method),
   and its execution semantics over an arbitrary numeric carrier.

     def f(<args>):
         x = states[i] ...            SUnpackS
         p = parameters[i] ...        SUnpackP
         m = missing_variables[i] ... SUnpackM
         values = zeros(n)
         a = <expr>                   SLet
         values[i] = <expr>           SStore
         return values                                                                  *)
From GX Require Import Base Expr.
From Coq Require Import QArith_base.
Close Scope Q_scope.
Open Scope string_scope.
Open Scope list_scope.

Inductive stmt :=
| SUnpackS (x : string) (i : nat)
| SUnpackP (x : string) (i : nat)
| SUnpackM (x : string) (i : nat)
| SLet (x : string) (e : expr)
| SStore (i : nat) (e : expr).

Record func := {
  f_name : string;
  f_args : list string;     (* formal parameters in order, e.g. ["t"; "states"; "parameters"] *)
  f_nret : nat;             (* length of the returned array *)
  f_body : list stmt }.

Section Exec.
  Context {T : Type} (N : NumOps T).

  Record inputs := {
    in_t : T;
    in_dt : T;
    in_states : list T;
    in_params : list T;
    in_missing : list T }.

  Definition tzero : T := ofQ N (inject_Z 0).

  Definition env := list (string * T).

  Definition env_fun (rho : env) : string -> T :=
    fun x => match lookup x rho with Some v => v | None => tzero end.

  Definition bound (rho : env) (e : expr) : bool :=
    forallb (fun x => match lookup x rho with Some _ => true | None => false end) (vars e).

  (* the environment a function body starts in: its scalar formals.  "time" prints as the
     symbol t (ode.py: symbols["time"] = t), so both names denote the time argument. *)
  Definition env0 (inp : inputs) (with_dt : bool) : env :=
    (if with_dt then [("dt", in_dt inp)] else []) ++ [("t", in_t inp); ("time", in_t inp)].

  (* one statement: None models the run-time failure of the real program
     (NameError on an unbound name, IndexError on a slot outside the array) *)
  Definition step (nret : nat) (inp : inputs) (st : env * list (nat * T)) (s : stmt)
    : option (env * list (nat * T)) :=
    let '(rho, vals) := st in
    match s with
    | SUnpackS x i => match nth_error (in_states inp) i with
                      | Some v => Some ((x, v) :: rho, vals) | None => None end
    | SUnpackP x i => match nth_error (in_params inp) i with
                      | Some v => Some ((x, v) :: rho, vals) | None => None end
    | SUnpackM x i => match nth_error (in_missing inp) i with
                      | Some v => Some ((x, v) :: rho, vals) | None => None end
    | SLet x e => if bound rho e then Some ((x, eval N (env_fun rho) e) :: rho, vals) else None
    | SStore i e => if bound rho e && Nat.ltb i nret
                    then Some (rho, (i, eval N (env_fun rho) e) :: vals) else None
    end.

  Fixpoint run (nret : nat) (inp : inputs) (st : env * list (nat * T)) (body : list stmt)
    : option (env * list (nat * T)) :=
    match body with
    | [] => Some st
    | s :: body' => match step nret inp st s with
                    | Some st' => run nret inp st' body'
                    | None => None
                    end
    end.

  Fixpoint lookup_nat (i : nat) (l : list (nat * T)) : option T :=
    match l with
    | [] => None
    | (j, v) :: l' => if Nat.eqb i j then Some v else lookup_nat i l'
    end.

  (* the returned array: slot i holds the last value stored there, 0 if never stored
     (numpy.zeros_like / numpy.zeros) *)
  Definition result (nret : nat) (vals : list (nat * T)) : list T :=
    map (fun i => match lookup_nat i vals with Some v => v | None => tzero end) (seq 0 nret).

  Definition exec (f : func) (with_dt : bool) (inp : inputs) : option (list T) :=
    match run (f_nret f) inp (env0 inp with_dt, []) (f_body f) with
    | Some (_, vals) => Some (result (f_nret f) vals)
    | None => None
    end.

  (* values of every let-bound name at the end of the body (what monitor_values exposes) *)
  Definition exec_env (f : func) (with_dt : bool) (inp : inputs) : option env :=
    match run (f_nret f) inp (env0 inp with_dt, []) (f_body f) with
    | Some (rho, _) => Some rho
    | None => None
    end.
End Exec.

Arguments inputs : clear implicits.
Arguments env : clear implicits.
Arguments in_t {T}. Arguments in_dt {T}. Arguments in_states {T}. Arguments in_params {T}.
Arguments in_missing {T}.

Lemma run_app {T} (N : NumOps T) nret inp st b1 b2 :
  run N nret inp st (b1 ++ b2) =
  match run N nret inp st b1 with Some st' => run N nret inp st' b2 | None => None end.
Proof.
  revert st; induction b1 as [|s b1 IH]; intros st; simpl; [reflexivity|].
  destruct (step N nret inp st s); auto.
Qed.

Section Result.
  Context {T : Type} (N : NumOps T).

  Lemma lookup_nat_In i v (l : list (nat * T)) : lookup_nat i l = Some v -> In (i, v) l.
  Proof.
    induction l as [|[j w] l IH]; simpl; [discriminate|].
    destruct (Nat.eqb_spec i j) as [->|Hne]; [intros [= ->]; auto|auto].
  Qed.

  Lemma In_lookup_nat i v (l : list (nat * T)) : In (i, v) l -> exists w, lookup_nat i l = Some w.
  Proof.
    induction l as [|[j w] l IH]; simpl; [tauto|].
    intros [[= -> ->]|H].
    - rewrite Nat.eqb_refl. eauto.
    - destruct (Nat.eqb i j); eauto.
  Qed.

  Lemma result_length nret vals : length (result N nret vals) = nret.
  Proof. unfold result. rewrite map_length. apply seq_length. Qed.

  Lemma result_nth nret vals i :
    i < nret ->
    nth_error (result N nret vals) i =
    Some (match lookup_nat i vals with Some v => v | None => tzero N end).
  Proof.
    intros H. unfold result. rewrite nth_error_map.
    rewrite (nth_error_nth' _ 0) by (rewrite seq_length; exact H).
    rewrite seq_nth by exact H. reflexivity.
  Qed.
End Result.
