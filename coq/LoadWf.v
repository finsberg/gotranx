(* LoadWf.v — what the loader mirror accepts satisfies the hypotheses of the mirror-compiler theorems
   (MirrorValid.wf_gen), provided no name is t, time or, for a scheme, dt: the scalar arguments of the generated
   function ([resv]; CodeGenerator._check_names refuses these, among others, before generating): [load_wf] (C08).
   Hence, end to end for the model: for every accepted item list that has a statement order (a cyclic one is accepted
   by the loader and has none), the generated rhs (C01) and explicit Euler function (C05) run and return the
   documented meanings. *)
From GX Require Import Base Expr Ode OrderSound Target Sem Codegen Valid Load LoadSound Perm MirrorValid LoadPerm.
From Coq Require Import Lia.

(* the tests of [deriv_state] say what the first character and the last three are, and that there is a fifth;
   with the part between them, which it returns, these pieces are the whole name *)
Lemma deriv_state_inv n s : deriv_state n = Some s -> deriv_name_of s = n.
Proof.
  unfold deriv_state, deriv_name_of, suffix_dt.
  destruct (String.eqb_spec (substring 0 1 n) "d") as [E1|]; [|discriminate].
  destruct (String.eqb_spec (substring (String.length n - 3) 3 n) "_dt") as [E2|]; [|discriminate].
  destruct (Nat.leb_spec 5 (String.length n)) as [Hlen|]; [|discriminate]. cbn [andb].
  intros [= <-]. rewrite <- E1, <- E2.
  replace (String.length n - 3) with (1 + (String.length n - 4)) by lia.
  rewrite <- !substring_app. replace (1 + (String.length n - 4 + 3)) with (String.length n) by lia. apply substring_all.
Qed.

Section Loaded.
  Variable cs : list comp.
  Hypothesis HA : handle_assignments cs = Ok tt.
  Hypothesis CC : check_components cs = Ok tt.
  Hypothesis NF : name_functional (all_atoms cs).
  Hypothesis RS : resolve cs = Ok tt.
  Let o := ode_of cs.

  Lemma cs_derivs_iff a : In a (o_derivs o) <-> exists c, In c cs /\ In a (comp_derivs c).
  Proof. eapply iff_trans; [apply dedup_assign_In|apply in_flat_map]. Qed.

  Theorem loaded_names_unique : NoDup (all_names o).
  Proof using NF. exact (names_unique cs NF). Qed.

  Lemma deriv_has_state a : In a (o_derivs o) ->
    exists s, deriv_state (a_name a) = Some s /\ In s (map d_name (o_states o)).
  Proof.
    intros H. apply cs_derivs_iff in H. destruct H as [c [Hc Ha]]. unfold comp_derivs in Ha.
    apply filter_In in Ha. destruct Ha as [Ha Hd]. unfold is_deriv in Hd.
    destruct (deriv_state (a_name a)) as [s|] eqn:E; [|discriminate]. exists s. split; [reflexivity|].
    pose proof (proj1 (handle_assignments_Ok cs) HA c a s Hc Ha E) as Hs. unfold has_state in Hs.
    apply existsb_exists in Hs. destruct Hs as [d [Hd1 Hd2]]. apply String.eqb_eq in Hd2.
    apply in_map_iff. exists d. split; [exact Hd2|]. apply (ode_of_op cs (OS d)). exists c. auto.
  Qed.

  Lemma state_has_deriv d : In d (o_states o) ->
    exists a, In a (o_derivs o) /\ deriv_state (a_name a) = Some (d_name d).
  Proof.
    intros H. apply (ode_of_op cs (OS d)) in H. destruct H as [c [Hc Hd]].
    pose proof (proj1 (check_components_Ok cs) CC c Hc) as Hcomp.
    destruct (state_has_derivative_spec c d (proj1 (forallb_forall _ _) Hcomp d Hd)) as [a [Ha Hs]].
    exists a. split; [|exact Hs]. apply cs_derivs_iff. exists c. split; [exact Hc|].
    unfold comp_derivs. apply filter_In. split; [exact Ha|]. unfold is_deriv. rewrite Hs. reflexivity.
  Qed.

  (* the fifth test of [wf_gen]: a derivative is named d<state>_dt after the state [st_of] reads off its name *)
  Lemma loaded_W4 n : In n (map a_name (o_derivs o)) -> deriv_name_of (st_of n) = n.
  Proof.
    intros H. apply in_map_iff in H. destruct H as [a [<- Ha]].
    destruct (deriv_has_state a Ha) as [s [Hs _]]. unfold st_of. rewrite Hs. apply deriv_state_inv. exact Hs.
  Qed.

  (* the third and fourth test of [wf_gen]: the slots of the state vector are the declared states *)
  Lemma loaded_W3 ss : sorted_states o = Some ss -> forall s, In s ss <-> In s (map d_name (o_states o)).
  Proof.
    intros Hss s. rewrite sorted_states_eq in Hss.
    destruct (sorted_names o false) as [ord|] eqn:Eo; [|discriminate]. injection Hss as <-.
    destruct (sorted_names_sound o false ord Eo) as (_ & Hin & Hall & _). split.
    - intros H. apply in_map_iff in H. destruct H as [n [<- Hn]]. apply filter_In in Hn. destruct Hn as [_ Hd].
      unfold is_deriv_name in Hd. apply mem_In in Hd. apply in_map_iff in Hd. destruct Hd as [a [<- Ha]].
      destruct (deriv_has_state a Ha) as [s' [Hs' Hin']]. unfold st_of. rewrite Hs'. exact Hin'.
    - intros H. apply in_map_iff in H. destruct H as [d [<- Hd]].
      destruct (state_has_deriv d Hd) as [a [Ha Hs]]. apply in_map_iff. exists (a_name a). split.
      + unfold st_of. rewrite Hs. reflexivity.
      + apply filter_In. split.
        * apply Hall; [|left; reflexivity]. apply all_assign_names_In. unfold assigns. rewrite map_app.
          apply in_or_app. right. apply in_map. exact Ha.
        * unfold is_deriv_name. apply mem_In. apply in_map. exact Ha.
  Qed.

  (* the sixth test of [wf_gen] holds of an empty list: every symbol is defined, so nothing is missing *)
  Lemma loaded_no_missing : missing_names o = [].
  Proof.
    destruct (missing_names o) as [|x l] eqn:E; [reflexivity|]. exfalso.
    assert (H : In x (missing_names o)) by (rewrite E; left; reflexivity).
    apply missing_names_spec in H. destruct H as ((a & Ha & Hx) & Hk).
    assert (K : known_symbol o x = true); [|congruence]. rewrite known_symbol_eq. apply orb_true_iff.
    apply (ode_of_op cs (OA a)) in Ha. destruct Ha as (c & Hc & Ha).
    assert (Hs : In x (symbols cs)).
    { apply (proj1 (resolve_Ok cs) RS a x); [apply in_flat_map; eauto|exact Hx]. }
    apply symbols_names in Hs. destruct Hs as [Hs|[<-|[<-|[]]]]; [left; apply mem_In, Hs|right; reflexivity..].
  Qed.
End Loaded.

Lemma NoDup_nodupb l : NoDup l -> nodupb l = true.
Proof. intros H. unfold nodupb. rewrite (NoDup_dedup_id l H). apply Nat.eqb_refl. Qed.

Theorem load_wf items o ss wd :
  load items = Ok o -> sorted_states o = Some ss ->
  (forall x, In x (all_names o) -> resv wd x = false) ->
  wf_gen o ss wd = true.
Proof.
  intros HL Hss Hres. apply load_iff in HL. destruct HL as (cs & HL & ->).
  apply load_comps_iff in HL. destruct HL as (_ & HA & CC & NF & RS).
  unfold wf_gen. repeat (apply andb_true_intro; split).
  - apply NoDup_nodupb. exact (loaded_names_unique cs (proj1 (first_dup_None _) NF)).
  - apply forallb_forall. intros x Hx. rewrite (Hres x Hx). reflexivity.
  - apply forallb_mem. intros s Hs. apply (loaded_W3 cs HA CC ss Hss). exact Hs.
  - apply forallb_mem. intros s Hs. apply (loaded_W3 cs HA CC ss Hss). exact Hs.
  - apply forallb_forall. intros n Hn. apply String.eqb_eq. exact (loaded_W4 cs HA n Hn).
  - rewrite (loaded_no_missing cs RS). reflexivity.
Qed.

Theorem accepted_text_compiles_to_a_correct_rhs {T} (N : NumOps T) items o ru order ss f (inp : inputs T) :
  load items = Ok o ->
  (forall x, In x (all_names o) -> resv false x = false) ->
  sorted_states o = Some ss ->
  gen_rhs o ru order = Some f ->
  sizes_ok o ss inp ->
  exists out,
    exec N f false inp = Some out
    /\ length out = length ss
    /\ forall i s, nth_error ss i = Some s ->
         exists v, nth_error out i = Some v /\ Sem N o ss inp false (deriv_name_of s) v.
Proof.
  intros HL Hres Hss Hgen Hsz.
  exact (proj2 (mirror_rhs_correct N o ru order ss f inp Hss (load_wf items o ss false HL Hss Hres) Hgen Hsz)).
Qed.

Theorem accepted_text_compiles_to_a_correct_euler_step {T} (N : NumOps T) items o ru name order ss f (inp : inputs T) :
  CommOps N ->
  load items = Ok o ->
  (forall x, In x (all_names o) -> resv true x = false) ->
  sorted_states o = Some ss ->
  gen_euler o ru name order = Some f ->
  sizes_ok o ss inp ->
  exists out,
    exec N f true inp = Some out
    /\ length out = length ss
    /\ forall i s, nth_error ss i = Some s ->
         exists sv fv,
           nth_error (in_states inp) i = Some sv
           /\ Sem N o ss inp true (deriv_name_of s) fv
           /\ nth_error out i = Some (add N sv (mul N (in_dt inp) fv)).
Proof.
  intros HC HL Hres Hss Hgen Hsz.
  exact (proj2 (mirror_euler_correct N o ru name order ss f inp HC Hss (load_wf items o ss true HL Hss Hres) Hgen Hsz)).
Qed.

Print Assumptions accepted_text_compiles_to_a_correct_rhs.
