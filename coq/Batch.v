(* Batch.v — vectorised execution (C14).  A batch is a function from the column index to a value;
   the batch carrier applies every operation column by column (this is what numpy does for the
   array-safe constructs: arithmetic, numpy.<function>, comparisons, numpy.where,
   numpy.logical_and / or / not).  Executing a function body on a batch is the same as executing it on every
   column alone. *)
From GX Require Import Base Expr Target.
Open Scope string_scope.
Open Scope list_scope.

Section Batch.
  Context {T : Type} (N : NumOps T).

  Local Notation V := (nat -> T).

  Definition VOps : NumOps V := {|
    ofQ := fun q _ => ofQ N q;
    cpi := fun _ => cpi N;
    add := fun a b j => add N (a j) (b j);
    sub := fun a b j => sub N (a j) (b j);
    mul := fun a b j => mul N (a j) (b j);
    div := fun a b j => div N (a j) (b j);
    pow := fun a b j => pow N (a j) (b j);
    neg := fun a j => neg N (a j);
    fn := fun f a j => fn N f (a j);
    fmod := fun a b j => fmod N (a j) (b j);
    rel := fun r a b j => rel N r (a j) (b j);
    bnot := fun a j => bnot N (a j);
    band := fun a b j => band N (a j) (b j);
    bor := fun a b j => bor N (a j) (b j);
    select := fun c a b j => select N (c j) (a j) (b j) |}.

  Lemma eval_columnwise (rho : string -> V) e j :
    eval VOps rho e j = eval N (fun x => rho x j) e.
  Proof.
    (* [eval] is unfolded first and the operations of [VOps] after: coqchk is very slow to verify the two as one
       conversion step *)
    induction e; cbn [eval]; simpl; auto using f_equal, f_equal2, f_equal3.
  Qed.

  Definition col_inputs (j : nat) (inp : inputs V) : inputs T :=
    {| in_t := in_t inp j; in_dt := in_dt inp j;
       in_states := map (fun v => v j) (in_states inp);
       in_params := map (fun v => v j) (in_params inp);
       in_missing := map (fun v => v j) (in_missing inp) |}.

  Definition col_env (j : nat) (rho : env V) : env T := map (fun kv => (fst kv, snd kv j)) rho.
  Definition col_vals (j : nat) (vals : list (nat * V)) : list (nat * T) :=
    map (fun kv => (fst kv, snd kv j)) vals.

  Lemma lookup_col j (rho : env V) x :
    lookup x (col_env j rho) = option_map (fun v => v j) (lookup x rho).
  Proof.
    induction rho as [|[y v] rho IH]; simpl; [reflexivity|].
    destruct (String.eqb x y); auto.
  Qed.

  Lemma bound_col j (rho : env V) e : bound (col_env j rho) e = bound rho e.
  Proof.
    apply forallb_ext'. intros x. rewrite lookup_col. destruct (lookup x rho); reflexivity.
  Qed.

  Lemma env_fun_col j (rho : env V) x :
    env_fun N (col_env j rho) x = env_fun VOps rho x j.
  Proof. unfold env_fun. rewrite lookup_col. destruct (lookup x rho); reflexivity. Qed.

  Lemma eval_env_col j (rho : env V) e :
    eval VOps (env_fun VOps rho) e j = eval N (env_fun N (col_env j rho)) e.
  Proof.
    rewrite eval_columnwise. apply eval_ext. intros x _. symmetry. apply env_fun_col.
  Qed.

  Lemma env0_col j inp wd : env0 (col_inputs j inp) wd = col_env j (env0 inp wd).
  Proof. destruct wd; reflexivity. Qed.

  Definition col_state (j : nat) '((rho, vals) : env V * list (nat * V)) : env T * list (nat * T) :=
    (col_env j rho, col_vals j vals).

  Lemma step_col j nret inp st s :
    step N nret (col_inputs j inp) (col_state j st) s = option_map (col_state j) (step VOps nret inp st s).
  Proof.
    destruct st as [rho vals], s as [x i|x i|x i|x e|i e];
      cbn [step col_state col_inputs in_states in_params in_missing].
    1-3: rewrite nth_error_map; case (nth_error _ i); reflexivity.
    - rewrite bound_col. case (bound rho e); [|reflexivity]. simpl. rewrite eval_env_col. reflexivity.
    - rewrite bound_col. case (bound rho e && Nat.ltb i nret); [|reflexivity].
      simpl. rewrite eval_env_col. reflexivity.
  Qed.

  Lemma run_col j nret inp body : forall st,
    run N nret (col_inputs j inp) (col_state j st) body = option_map (col_state j) (run VOps nret inp st body).
  Proof.
    induction body as [|s body IH]; intros st; cbn [run]; [reflexivity|].
    rewrite step_col. case (step VOps nret inp st s); [exact IH|reflexivity].
  Qed.

  Lemma lookup_nat_col j i (vals : list (nat * V)) :
    lookup_nat i (col_vals j vals) = option_map (fun v => v j) (lookup_nat i vals).
  Proof.
    induction vals as [|[k v] vals IH]; simpl; [reflexivity|]. destruct (Nat.eqb i k); auto.
  Qed.

  Lemma result_col j nret (vals : list (nat * V)) :
    result N nret (col_vals j vals) = map (fun v => v j) (result VOps nret vals).
  Proof.
    unfold result. rewrite map_map. apply map_ext. intros i. rewrite lookup_nat_col.
    destruct (lookup_nat i vals); reflexivity.
  Qed.

  (* C14: the result for a batch is, column by column, the result for that column alone; and the
     batch call fails (NameError / IndexError) exactly when the single-column calls do *)
  Theorem exec_columnwise (f : func) wd (inp : inputs V) j :
    exec N f wd (col_inputs j inp) =
    match exec VOps f wd inp with
    | Some out => Some (map (fun v => v j) out)
    | None => None
    end.
  Proof.
    unfold exec. rewrite env0_col.
    change (col_env j (env0 inp wd), @nil (nat * T)) with (col_state j (env0 inp wd, [])). rewrite run_col.
    destruct (run VOps (f_nret f) inp (env0 inp wd, [])) as [[rho vals]|]; [|reflexivity].
    simpl. rewrite result_col. reflexivity.
  Qed.
End Batch.
