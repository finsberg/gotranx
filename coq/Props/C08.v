(* C08 — Ill-formed models are rejected, never silently repaired. *)
From GX Require Import Base Expr Topo KahnSound Ode OrderSound Target Sem Load LoadSound MirrorValid LoadWf Examples.
From Coq Require Import ZArith.
Open Scope string_scope.
Open Scope list_scope.

(* A text becomes a model only if it is well formed.  For the loader mirror (which follows the
   loader stage by stage and is compared with it on every fault-injected text):
   (1) no name has two differing definitions - of any kinds, in any components;
   (2) every derivative has a declared state in its component;
   (3) every state has a derivative;
   (4) every referenced symbol is defined (or is time / t). *)
Theorem C08_accepted_models_are_well_formed :
  forall items cs,
    load_comps items = Ok cs ->
    (forall l1 x l2, all_atoms cs = l1 ++ x :: l2 ->
       forall y, In y l2 -> atom_name x = atom_name y -> atom_eqb x y = true)
    /\ (forall c a s, In c cs -> In a (c_assigns c) -> deriv_state (a_name a) = Some s ->
          has_state c s = true)
    /\ (forall c d, In c cs -> In d (c_states c) -> state_has_derivative c d = true)
    /\ (forall a x, In a (all_assigns cs) -> In x (vars (a_expr a)) -> In x (symbols cs)).
Proof. exact load_sound. Qed.
Print Assumptions C08_accepted_models_are_well_formed.

(* the boolean of (3), spelled out *)
Theorem C08_a_state_with_derivative_has_an_assignment_of_that_name :
  forall c d, state_has_derivative c d = true ->
    exists a, In a (c_assigns c) /\ deriv_state (a_name a) = Some (d_name d).
Proof. exact state_has_derivative_spec. Qed.
Print Assumptions C08_a_state_with_derivative_has_an_assignment_of_that_name.

(* generated code that passes the validator never reads an undefined value: it binds every name
   before use and, on input arrays as long as their tables, runs to completion (acyclicity of the
   definitions it contains is implied: each let reads only names bound earlier) *)
Theorem C08_validated_code_never_reads_an_undefined_value :
  forall (T : Type) (N : NumOps T) (o : ode) ss (inp : inputs T) with_dt (f : func),
    sizes_ok o ss inp -> reserved_free o inp with_dt = true ->
    valid_body o ss inp with_dt (f_nret f) (reserved inp with_dt) (f_body f) = true ->
    exists out, exec N f with_dt inp = Some out /\ length out = f_nret f.
Proof. exact @exec_total. Qed.
Print Assumptions C08_validated_code_never_reads_an_undefined_value.

(* consequently every accepted model that has a statement order satisfies the well-formedness the generator
   theorems (C01, C05, C12) need - wf_gen: names pairwise distinct across all kinds, the slot table lists exactly
   the states, every derivative is called d<state>_dt, no name of the model or missing from it is one of the
   generator's own - as soon as its names avoid the generator's own *)
Theorem C08_accepted_models_satisfy_the_generators_preconditions :
  forall items o ss wd,
    load items = Ok o -> sorted_states o = Some ss ->
    (forall x, In x (all_names o) -> resv wd x = false) ->
    wf_gen o ss wd = true.
Proof. exact load_wf. Qed.
Print Assumptions C08_accepted_models_satisfy_the_generators_preconditions.

(* cyclic definitions get no statement order at all (graphlib.CycleError in the implementation):
   if sorted_assignments returns an order, no assignment reads itself, no two assignments read
   each other, and in general every assignment comes strictly after everything it reads - so no
   dependency cycle of any length exists among the ordered assignments *)
Theorem C08_an_ordered_model_has_no_self_dependency :
  forall dp names ord n,
    static_order (build dp names []) = Some ord -> In n names -> ~ In n (dp n).
Proof. exact build_order_no_self_dep. Qed.
Print Assumptions C08_an_ordered_model_has_no_self_dependency.

Theorem C08_an_ordered_model_has_no_mutual_dependency :
  forall o ru ord n m,
    sorted_names o ru = Some ord -> In n ord -> In m ord ->
    In m (deps_of o n) -> In n (deps_of o m) -> False.
Proof. exact sorted_names_acyclic2. Qed.
Print Assumptions C08_an_ordered_model_has_no_mutual_dependency.

Theorem C08_static_order_is_topological :
  forall dp names ord,
    static_order (build dp names []) = Some ord ->
    NoDup ord
    /\ (forall n, In n names -> In n ord)
    /\ (forall pre n post, ord = pre ++ n :: post -> In n names ->
          forall d, In d (dp n) -> In d pre).
Proof. exact build_order_sound. Qed.
Print Assumptions C08_static_order_is_topological.

(* and conversely: the sort refuses a model only when its definitions cannot be ranked, i.e. only when
   they are cyclic (a cycle is the one fault the sort is responsible for; no well-formed model is lost) *)
Theorem C08_cycle_error_iff_cyclic :
  forall o ru,
    (exists ord, sorted_names o ru = Some ord)
    <-> exists rank : string -> nat,
          forall n d, In n (all_assign_names o) -> In d (deps_of o n) -> rank d < rank n.
Proof. exact sorted_names_iff_ranked. Qed.
Print Assumptions C08_cycle_error_iff_cyclic.

(* the mirror rejects each kind of fault (computed): duplicate with the same dependency set,
   duplicate derivative, kind clash, missing derivative, orphan derivative, undefined symbol; a
   cycle is detected by the topological sort at generation; and the example model is not rejected *)
Definition mk_line n e := {| ln_name := n; ln_expr := e; ln_unit := None; ln_comment := None |}.
Definition mk_entry n z := {| en_name := n; en_value := lit z; en_unit := None; en_desc := None |}.
Definition is_err {A} (r : result A) := match r with Err _ => true | Ok _ => false end.

Example C08_faults_are_rejected_by_the_mirror :
  is_err (load [IStates [""] [mk_entry "s" 1]; IExprs [""] [mk_line "x" (lit 1); mk_line "ds_dt" (v "x"); mk_line "x" (lit 3)]]) = true
  /\ is_err (load [IStates [""] [mk_entry "s" 1]; IParams [""] [mk_entry "a" 1; mk_entry "b" 2];
                   IExprs [""] [mk_line "ds_dt" (v "a"); mk_line "ds_dt" (v "b")]]) = true
  /\ is_err (load [IStates [""] [mk_entry "s" 1]; IParams [""] [mk_entry "s" 1]; IExprs [""] [mk_line "ds_dt" (v "s")]]) = true
  /\ is_err (load [IStates [""] [mk_entry "s" 1; mk_entry "r" 1]; IExprs [""] [mk_line "ds_dt" (v "s")]]) = true
  /\ is_err (load [IStates [""] [mk_entry "s" 1]; IExprs [""] [mk_line "ds_dt" (v "s"); mk_line "dq_dt" (v "s")]]) = true
  /\ is_err (load [IStates [""] [mk_entry "s" 1]; IExprs [""] [mk_line "ds_dt" (v "nope")]]) = true
  /\ (match load [IStates [""] [mk_entry "s" 1];
                  IExprs [""] [mk_line "a" (v "b"); mk_line "b" (v "a"); mk_line "ds_dt" (v "a")]] with
      | Ok o => sorted_names o false
      | Err _ => Some []
      end) = None
  /\ is_err (load ex_items) = false.
Proof. vm_compute. repeat split. Qed.
