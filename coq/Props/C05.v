(* C05 — Explicit Euler step equals states + dt * rhs. *)
From GX Require Import Base Expr Ode Target Sem Codegen Load Valid MirrorValid LoadWf Carriers Theory Examples.
From Coq Require Import QArith.
Close Scope Q_scope.
Open Scope string_scope.
Open Scope list_scope.

(* For a validated Euler program and a validated rhs program of the same model: slot i of the
   Euler result is  states[i] + dt * rhs[i]  - exactly, in any carrier whose + and * are
   commutative (reals, rationals, IEEE doubles).  Assumed: the functions take dt; input arrays as long as
   their tables; no assignment called dt, t or time; no state so called or also an assignment (states_clean),
   none twice in ss. *)
Theorem C05_euler_is_states_plus_dt_times_rhs :
  forall (T : Type) (N : NumOps T) (o : ode) ss (inp : inputs T) with_dt fe fr,
    CommOps N -> with_dt = true ->
    sizes_ok o ss inp -> reserved_free o inp with_dt = true ->
    states_clean o ss inp with_dt = true -> NoDup ss ->
    valid_euler o ss inp with_dt fe = true -> valid_rhs o ss inp with_dt fr = true ->
    exists oe orr,
      exec N fe with_dt inp = Some oe /\ exec N fr with_dt inp = Some orr
      /\ length oe = length ss /\ length orr = length ss
      /\ forall i, i < length ss ->
           exists sv fv, nth_error (in_states inp) i = Some sv /\ nth_error orr i = Some fv
                         /\ nth_error oe i = Some (add N sv (mul N (in_dt inp) fv)).
Proof. exact @euler_is_rhs_step. Qed.
Print Assumptions C05_euler_is_states_plus_dt_times_rhs.

(* with dt = 0 the input states are returned, under the same assumptions, in carriers with the four equations of
   Carriers.RingLaws: + and * commute, 0*a = 0, a+0 = a (IEEE doubles do not have 0*a = 0 at an infinite or nan a) *)
Theorem C05_dt_zero_returns_the_states :
  forall (T : Type) (N : NumOps T) (o : ode) ss (inp : inputs T) with_dt fe,
    RingLaws N -> with_dt = true -> in_dt inp = ofQ N 0%Q ->
    sizes_ok o ss inp -> reserved_free o inp with_dt = true ->
    states_clean o ss inp with_dt = true -> NoDup ss ->
    valid_euler o ss inp with_dt fe = true ->
    exec N fe with_dt inp = Some (in_states inp).
Proof. exact @euler_dt0. Qed.
Print Assumptions C05_dt_zero_returns_the_states.

(* those four equations, not the axioms of a ring *)
Theorem C05_rationals_satisfy_the_ring_laws : RingLaws QcOps.
Proof. exact QcOps_ring. Qed.
Print Assumptions C05_rationals_satisfy_the_ring_laws.

(* the mirror of schemes.explicit_euler is a verified compiler: for every well-formed model (wf_gen with
   dt reserved) that has a statement order (no cycle) it generates a function that passes the validator and returns
   states[i] + dt * (meaning of d<state i>_dt) in slot i, for every carrier with commutative + and * *)
Theorem C05_mirror_euler_is_correct_for_every_well_formed_model :
  forall (T : Type) (N : NumOps T) (o : ode) ru name order ss f (inp : inputs T),
    CommOps N ->
    sorted_states o = Some ss -> wf_gen o ss true = true ->
    gen_euler o ru name order = Some f ->
    sizes_ok o ss inp ->
    valid_euler o ss inp true f = true
    /\ exists out,
        exec N f true inp = Some out
        /\ length out = length ss
        /\ forall i s, nth_error ss i = Some s ->
             exists sv fv,
               nth_error (in_states inp) i = Some sv
               /\ Sem N o ss inp true (deriv_name_of s) fv
               /\ nth_error out i = Some (add N sv (mul N (in_dt inp) fv)).
Proof. exact @mirror_euler_correct. Qed.
Print Assumptions C05_mirror_euler_is_correct_for_every_well_formed_model.

(* and from the text: every accepted item list whose names avoid dt, t, time and that has a statement order compiles
   to such a step *)
Theorem C05_accepted_text_compiles_to_a_correct_euler_step :
  forall (T : Type) (N : NumOps T) items o ru name order ss f (inp : inputs T),
    CommOps N ->
    load items = Ok o ->
    (forall x, In x (all_names o) -> resv true x = false) ->
    sorted_states o = Some ss ->
    gen_euler o ru name order = Some f ->
    sizes_ok o ss inp ->
    exists out,
      exec N f true inp = Some out
      /\ length out = length ss
      /\ forall i s, nth_error ss i = Some s ->
           exists sv fv,
             nth_error (in_states inp) i = Some sv
             /\ Sem N o ss inp true (deriv_name_of s) fv
             /\ nth_error out i = Some (add N sv (mul N (in_dt inp) fv)).
Proof. exact @accepted_text_compiles_to_a_correct_euler_step. Qed.
Print Assumptions C05_accepted_text_compiles_to_a_correct_euler_step.

(* non-vacuity *)
Example C05_example :
  valid_euler ex_ode ex_ss ex_inp true (ex_euler false) = true
  /\ valid_rhs ex_ode ex_ss ex_inp true (ex_rhs false) = true
  /\ states_clean ex_ode ex_ss ex_inp true = true
  /\ reserved_free ex_ode ex_inp true = true
  /\ wf_gen ex_ode ex_ss true = true
  /\ exec QcOps (ex_euler false) true ex_inp <> None.
Proof.
  (* bound by a beta-redex, the scheme is generated once when coqchk re-evaluates the cast lazily *)
  pattern (ex_euler false). vm_compute. repeat split. discriminate.
Qed.
