(* C02 — Generated C code compiles and computes the same values as the model defines. *)
From Coq Require Import Reals QArith Qcanon.
From GX Require Import Base Expr Cback Carriers RealsC CMod.
Close Scope Q_scope. Close Scope R_scope. Close Scope Qc_scope.
Open Scope string_scope.
Open Scope list_scope.

(* ceval is Cback's model of what C99 makes of a printed right-hand side (constants typed int or double, int / int
   truncating), on the expression harness/cparse.py reads off the generated text.  Where no division has two int-typed
   operands and fmod does not occur (c_safe), the typing does not disturb the value: it is the real-valued meaning, in
   every carrier whose conversion from int commutes with + - * and unary minus and agrees with integer literals
   (IntEmbedding; the reals have one, next theorem).  That pow and the <math.h> functions, comparisons, && || ! and ?:
   compute the carrier's operations is how ceval is defined, not part of the claim. *)
Theorem C02_c_value_is_the_real_value_on_the_safe_fragment :
  forall (T : Type) (N : NumOps T) (ofZ : Z -> T) (cfmod : T -> T -> T),
    IntEmbedding N ofZ ->
    forall rho e, c_safe e = true -> to_d ofZ (ceval N ofZ cfmod rho e) = eval N rho e.
Proof. exact @ceval_safe. Qed.
Print Assumptions C02_c_value_is_the_real_value_on_the_safe_fragment.

Theorem C02_int_embeds_into_the_reals : IntEmbedding ROps IZR.
Proof. exact R_int_embedding. Qed.
Print Assumptions C02_int_embeds_into_the_reals.

(* the static C type: an expression built from integer constants with + - * / and unary minus is an
   int, and evaluates as one *)
Theorem C02_integer_typed_expressions_evaluate_as_int :
  forall (T : Type) (N : NumOps T) ofZ cfmod rho e,
    is_int e = true -> exists z, ceval N ofZ cfmod rho e = CI z.
Proof. exact @ceval_type. Qed.
Print Assumptions C02_integer_typed_expressions_evaluate_as_int.

(* Refuted (computed over exact rationals):  (1/4)*x  is 0 in C and  (2*3)/4  is 1 (what the printer emits: the open
   known finding C02-integer-constant-division);  a single  fmod(x, 2)  differs from the floored Mod for a negative
   operand, which is why the printer writes the double fmod of the last theorem of this file. *)
Definition c_q (e : expr) (x : Qc) : Qc := to_d qc_ofZ (ceval QcOps qc_ofZ qc_cfmod (fun _ => x) e).
Definition i_ (z : Z) := ENum (inject_Z z) true.

Example C02_refuted_integer_quotient :
  Qc_eq_bool (c_q (EMul (EDiv (i_ 1) (i_ 4)) (EVar "x")) (Q2Qc 8)) (Q2Qc 0) = true
  /\ Qc_eq_bool (eval QcOps (fun _ => Q2Qc 8) (EMul (EDiv (i_ 1) (i_ 4)) (EVar "x"))) (Q2Qc 2) = true
  /\ Qc_eq_bool (c_q (EDiv (EMul (i_ 2) (i_ 3)) (i_ 4)) (Q2Qc 0)) (Q2Qc 1) = true
  /\ c_safe (EMul (EDiv (i_ 1) (i_ 4)) (EVar "x")) = false.
Proof. vm_compute. repeat split. Qed.

Example C02_refuted_fmod_sign :
  Qc_eq_bool (c_q (EMod (EVar "x") (i_ 2)) (Q2Qc (- 17 # 10))) (Q2Qc (- 17 # 10)) = true
  /\ Qc_eq_bool (eval QcOps (fun _ => Q2Qc (- 17 # 10)) (EMod (EVar "x") (i_ 2))) (Q2Qc (3 # 10)) = true.
Proof. vm_compute. repeat split. Qed.

(* non-vacuity of the safe fragment *)
Example C02_safe_example :
  c_safe (EMul (EDiv (ENum (1 # 1) false) (i_ 4)) (EAdd (EVar "x") (EPow (EVar "x") (i_ 2)))) = true.
Proof. reflexivity. Qed.

(* the C text printed for Mod(a, b) since the repair of the sign defect (/repo 64554cd) - fmod(fmod(a, b) + b, b), with C's
   fmod = a - b*trunc(a/b) - is the language's Mod (floored modulo, sign of the divisor) over the reals for every divisor
   other than 0; a single fmod is not (C02_refuted_fmod_sign).  The printed form lies outside c_safe: the first theorem
   does not speak of an expression that contains it. *)
Theorem C02_the_printed_form_of_Mod_is_the_models_Mod :
  forall a b : R, b <> 0%R -> r_cfmod (r_cfmod a b + b) b = fmod ROps a b.
Proof. exact printed_mod_is_the_models_mod. Qed.
Print Assumptions C02_the_printed_form_of_Mod_is_the_models_Mod.
