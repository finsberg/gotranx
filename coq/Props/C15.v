(* C15 — Importing a Myokit / CellML model preserves its dynamics. *)
From GX Require Import Base Expr Capture.
Open Scope string_scope.
Open Scope list_scope.

(* The converter writes every Myokit expression with sympy and then substitutes, in three passes, the
   unique name of the referent for every reference.  Partial model: the passes are renamings of
   identifiers; Myokit's own evaluator, parser, unit system and its sympy writer are not modelled
   (their effect is compared by execution with Model.evaluate_derivatives). *)

(* if the composed renaming maps every reference to the referent's unique name, the converted
   expression means, in the converted model's environment, what the Myokit expression means *)
Theorem C15_partial_substituting_unique_names_preserves_the_meaning :
  forall (T : Type) (N : NumOps T) (r : string -> string) (rho rho' : string -> T) e,
    (forall x, In x (vars e) -> rho' (r x) = rho x) ->
    eval N rho' (rename r e) = eval N rho e.
Proof. exact @eval_rename_transport. Qed.
Print Assumptions C15_partial_substituting_unique_names_preserves_the_meaning.

Theorem C15_partial_passes_compose :
  forall r1 r2 e, rename r2 (rename r1 e) = rename (fun x => r2 (r1 x)) e.
Proof. exact rename_compose. Qed.
Print Assumptions C15_partial_passes_compose.

(* a pass that matches nothing leaves every reference as it is.  This was the defect that was repaired: the pass
   for nested variables had strings for keys, which never match a symbol, so a reference by local name stayed a
   name the converted model does not define *)
Theorem C15_a_pass_that_matches_nothing_changes_nothing :
  forall e, rename (fun x => x) e = e.
Proof. exact rename_id. Qed.
Print Assumptions C15_a_pass_that_matches_nothing_changes_nothing.

Theorem C15_renaming_renames_exactly_the_references :
  forall r e, vars (rename r e) = map r (vars e).
Proof. exact vars_rename. Qed.
Print Assumptions C15_renaming_renames_exactly_the_references.
