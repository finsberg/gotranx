(* C16 — Singularity removal changes a model only at its removable singular points. *)
From Coq Require Import QArith Qcanon.
From GX Require Import Base Expr Singular Carriers RealsC.
Close Scope Q_scope. Close Scope R_scope. Close Scope Qc_scope.
Open Scope string_scope.
Open Scope list_scope.

(* What the property requires is the nested combination: original value wherever no removable
   singularity is hit, the replacement (the limit) where one is hit, infinite singularities and
   singularity-free expressions untouched - for any number of removable singularities, in any carrier with
   the laws Singular.SelLaws (a relation is 1 or 0, select picks by them; the reals have them).
   Partial: which singularities sympy finds, and that the replacement it computes is the limit, are taken
   as given (the record sing). *)
Theorem C16_nested_form_agrees_at_regular_points :
  forall (T : Type) (N : NumOps T), SelLaws N ->
  forall rho e l,
    (forall s, In s (removable l) -> miss N rho s) -> eval N rho (remove_nested e l) = eval N rho e.
Proof. exact @nested_regular. Qed.
Print Assumptions C16_nested_form_agrees_at_regular_points.

Theorem C16_nested_form_gives_the_limit_at_a_singular_point :
  forall (T : Type) (N : NumOps T), SelLaws N ->
  forall rho e l r1 s r2,
    removable l = r1 ++ s :: r2 -> (forall s', In s' r1 -> miss N rho s') -> hit N rho s ->
    eval N rho (remove_nested e l) = eval N rho (s_repl s).
Proof. exact @nested_singular. Qed.
Print Assumptions C16_nested_form_gives_the_limit_at_a_singular_point.

Theorem C16_untouched_without_removable_singularities :
  forall e l, removable l = [] -> remove_sum e l = e /\ remove_nested e l = e.
Proof. exact untouched_without_removable. Qed.
Print Assumptions C16_untouched_without_removable_singularities.

(* The code as it stands sums one conditional per singularity.  For one removable singularity this is
   the nested form (C16_partial: the property holds for at most one removable singularity per
   expression) ... *)
Theorem C16_partial_current_code_is_right_for_one_singularity :
  forall e l s, removable l = [s] -> remove_sum e l = remove_nested e l.
Proof. exact sum_is_nested_for_one. Qed.
Print Assumptions C16_partial_current_code_is_right_for_one_singularity.

(* ... for k >= 2 it counts the expression k times at every regular point (the open known finding
   C16-several-removable-singularities-are-summed) *)
Theorem C16_refuted_current_code_multiplies_by_the_number_of_singularities :
  forall (T : Type) (N : NumOps T), SelLaws N ->
  forall rho e l,
    removable l <> [] -> (forall s, In s (removable l) -> miss N rho s) ->
    eval N rho (remove_sum e l) = times N (length (removable l)) (eval N rho e).
Proof. exact @sum_regular. Qed.
Print Assumptions C16_refuted_current_code_multiplies_by_the_number_of_singularities.

Theorem C16_reals_satisfy_the_selection_laws : SelLaws ROps.
Proof. exact ROps_sel. Qed.
Print Assumptions C16_reals_satisfy_the_selection_laws.

(* computed witness over the rationals: two removable singularities (x = 0, y = 0), regular point
   x = y = 1, expression x + y: the summed form gives 4, the nested form 2 *)
Definition s0 (x : string) := {| s_var := x; s_val := ENum 0%Q true; s_repl := ENum 1%Q true; s_infinite := false |}.
Example C16_witness :
  Qc_eq_bool (eval QcOps (fun _ => Q2Qc 1) (remove_sum (EAdd (EVar "x") (EVar "y")) [s0 "x"; s0 "y"])) (Q2Qc 4) = true
  /\ Qc_eq_bool (eval QcOps (fun _ => Q2Qc 1) (remove_nested (EAdd (EVar "x") (EVar "y")) [s0 "x"; s0 "y"])) (Q2Qc 2) = true.
Proof. vm_compute. split; reflexivity. Qed.
