(* C18 — The command line writes what the API generates and honours its options. *)
From GX Require Import Base Cli.
From Coq Require Import QArith_base.
Close Scope Q_scope.
Open Scope string_scope.
Open Scope list_scope.

(* The model of the option plumbing is thin: the effective options are the command-line options
   overridden by the keys present in the configuration.  What the model can carry: *)
Theorem C18_without_configuration_the_command_line_options_are_used :
  forall cli, effective cli empty_config = cli.
Proof. exact no_config_keeps_the_command_line. Qed.
Print Assumptions C18_without_configuration_the_command_line_options_are_used.

Theorem C18_a_configured_key_overrides_the_command_line_whatever_its_value :
  forall cli cfg s st d,
    c_scheme cfg = Some s -> c_stiff cfg = Some st -> c_delta cfg = Some d ->
    o_scheme (effective cli cfg) = s /\ o_stiff (effective cli cfg) = st /\ o_delta (effective cli cfg) = d.
Proof. exact config_overrides_whatever_its_value. Qed.
Print Assumptions C18_a_configured_key_overrides_the_command_line_whatever_its_value.

Theorem C18_an_absent_key_leaves_the_command_line_value :
  forall cli cfg,
    c_scheme cfg = None -> c_stiff cfg = None -> c_delta cfg = None ->
    o_scheme (effective cli cfg) = o_scheme cli /\ o_stiff (effective cli cfg) = o_stiff cli
    /\ o_delta (effective cli cfg) = o_delta cli.
Proof. exact absent_keys_leave_the_command_line. Qed.
Print Assumptions C18_an_absent_key_leaves_the_command_line_value.

(* in particular an empty list or a zero in the configuration wins over a command-line value *)
Example C18_falsy_configuration_values_win :
  let cli := {| o_scheme := ["explicit_euler"]; o_stiff := ["x"]; o_delta := (1 # 2)%Q; o_verbose := false;
                o_remove_unused := false; o_format := "none"; o_backend := "numpy"; o_outname := None |} in
  let cfg := {| c_scheme := Some []; c_stiff := Some []; c_delta := Some 0%Q; c_verbose := None; c_format := None; c_backend := None |} in
  o_scheme (effective cli cfg) = [] /\ o_stiff (effective cli cfg) = [] /\ o_delta (effective cli cfg) = 0%Q.
Proof. repeat split. Qed.
(* Not modelled (runtime behaviour, checked by execution only): typer's parsing, process exit status,
   the file system, that the bytes written are the bytes get_code returns. *)
