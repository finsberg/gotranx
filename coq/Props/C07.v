(* C07 — Hybrid Rush-Larsen applies RL to exactly the stiff states and Euler to the rest. *)
From GX Require Import Base Expr Ode Target Sem Valid Schemes MirrorValid MirrorRL.
Open Scope string_scope.
Open Scope list_scope.

(* Every validated scheme program: slot state_index(s) holds the update prescribed for s - the
   generalized Rush-Larsen update (in the mode of s) when s is stiff, the Euler update otherwise.
   In every carrier with the seven equations of Schemes.FieldLaws.  Assumed, of the model extended by the helpers
   d<x>_dt_linearized: input arrays as long as their tables; no assignment called dt, t or time; no state so called
   or also an assignment (states_clean), none twice in ss.  Which mode a stiff state has is given by the table
   [modes]; how the generator chooses it is not part of the statement. *)
Theorem C07_validated_scheme_computes_the_prescribed_update :
  forall (T : Type) (N : NumOps T) (o : ode) ss (inp : inputs T),
    FieldLaws N ->
    forall modes stiff delta f,
    sizes_ok (extend_lin o) ss inp -> reserved_free (extend_lin o) inp true = true ->
    states_clean (extend_lin o) ss inp true = true -> NoDup ss ->
    valid_scheme o ss inp modes stiff delta f = true ->
    exists out,
      exec N f true inp = Some out
      /\ length out = length ss
      /\ forall i s, nth_error ss i = Some s ->
           exists sv fv gv,
             nth_error (in_states inp) i = Some sv
             /\ Sem N (extend_lin o) ss inp true (deriv_name_of s) fv
             /\ (slot_mode modes stiff i s = MEuler
                 \/ Sem N (extend_lin o) ss inp true (lin_name (deriv_name_of s)) gv)
             /\ nth_error out i
                = Some (slot_value N (slot_mode modes stiff i s) delta sv fv gv (in_dt inp)).
Proof. exact @scheme_sound. Qed.
Print Assumptions C07_validated_scheme_computes_the_prescribed_update.

(* the hybrid step equals the generalized step in the slots of stiff states and the Euler step in
   all other slots - for every model, every subset, every input, every carrier with the seven equations of
   Schemes.FieldLaws; the three programs are validated against the same table of modes *)
Theorem C07_hybrid_is_slotwise_generalized_or_euler :
  forall (T : Type) (N : NumOps T) (o : ode) ss (inp : inputs T),
    FieldLaws N ->
    forall modes stiff delta fh fg fe,
    sizes_ok (extend_lin o) ss inp -> reserved_free (extend_lin o) inp true = true ->
    states_clean (extend_lin o) ss inp true = true -> NoDup ss ->
    valid_scheme o ss inp modes stiff delta fh = true ->
    valid_scheme o ss inp modes all_stiff delta fg = true ->
    valid_scheme o ss inp modes none_stiff delta fe = true ->
    exists oh og oe,
      exec N fh true inp = Some oh /\ exec N fg true inp = Some og /\ exec N fe true inp = Some oe
      /\ length oh = length ss /\ length og = length ss /\ length oe = length ss
      /\ forall i s, nth_error ss i = Some s ->
           nth_error oh i = if stiff s then nth_error og i else nth_error oe i.
Proof. exact @hybrid_slotwise. Qed.
Print Assumptions C07_hybrid_is_slotwise_generalized_or_euler.

(* names in the stiff set that are not states have no effect on what the validator accepts (hence, by the first
   theorem, on the values) *)
Theorem C07_only_states_matter :
  forall (T : Type) (o : ode) ss (inp : inputs T) modes stiff stiff' delta f,
    (forall s, In s ss -> stiff s = stiff' s) ->
    valid_scheme o ss inp modes stiff delta f = valid_scheme o ss inp modes stiff' delta f.
Proof. exact @hybrid_depends_on_states_only. Qed.
Print Assumptions C07_only_states_matter.

(* the mirror of the Rush-Larsen generator is a verified compiler: for every well-formed model (wf_gen, dt reserved)
   with a statement order - whose names stay unique and unreserved, and whose missing variables stay the same, after
   adding the helpers d<state>_dt_linearized -, every set of stiff states and every assignment of modes to the states
   (the per-state decision Euler / guarded / plain that sympy makes and the check reads off the code), the generated
   function passes the validator and, on input arrays as long as their tables, returns in every slot the value the
   property prescribes for that slot's mode, in any carrier with the seven equations of Schemes.FieldLaws.  The
   implementation's generalized and hybrid functions are compared with this function statement by statement. *)
Theorem C07_mirror_rush_larsen_is_correct_for_every_well_formed_model :
  forall (T : Type) (N : NumOps T) (o : ode) ru modes stiff delta name order ss f (inp : inputs T),
    FieldLaws N ->
    sorted_states o = Some ss -> wf_gen o ss true = true ->
    NoDup (all_names (extend_lin o)) ->
    (forall x, In x (all_names (extend_lin o)) -> resv true x = false) ->
    (forall x, In x (missing_names (extend_lin o)) -> resv true x = false) ->
    missing_names (extend_lin o) = missing_names o ->
    gen_rl o ru modes stiff delta name order = Some f ->
    sizes_ok o ss inp ->
    valid_scheme o ss inp modes stiff delta f = true
    /\ exists out,
        exec N f true inp = Some out
        /\ List.length out = List.length ss
        /\ forall i s, nth_error ss i = Some s ->
             exists sv fv gv,
               nth_error (in_states inp) i = Some sv
               /\ Sem N (extend_lin o) ss inp true (deriv_name_of s) fv
               /\ (slot_mode modes stiff i s = MEuler \/ Sem N (extend_lin o) ss inp true (lin_name (deriv_name_of s)) gv)
               /\ nth_error out i = Some (slot_value N (slot_mode modes stiff i s) delta sv fv gv (in_dt inp)).
Proof. exact @mirror_rl_correct. Qed.
Print Assumptions C07_mirror_rush_larsen_is_correct_for_every_well_formed_model.
