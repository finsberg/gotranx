(* C09 — Generated code and slot layout are reproducible across processes. *)
From GX Require Import Base Ode Codegen Perm.
From Coq Require Import Permutation.
Open Scope string_scope.
Open Scope list_scope.

(* Python's set / frozenset iteration order (which changes with PYTHONHASHSEED) presents the same
   set of definitions as a different list: an [ode_equiv] model (each of its four lists permuted).  For a
   model whose assignments have distinct names (the loader sees to it: C08) the following are functions of
   the set: the statement order, the state, parameter and missing-variable layouts, and the mirror's rhs,
   monitor_values and explicit Euler functions.  The Rush-Larsen mirror (MirrorRL.gen_rl) and missing_values
   are not stated here.  Dependence on earlier calls in the same process has no counterpart: the mirror is a
   function of the model. *)

Theorem C09_name_sorting_is_a_function_of_the_multiset :
  forall l l' : list string, Permutation l l' -> sort_names l = sort_names l'.
Proof. exact sort_names_perm_eq. Qed.
Print Assumptions C09_name_sorting_is_a_function_of_the_multiset.

Theorem C09_statement_order_independent_of_set_iteration_order :
  forall o o', ode_equiv o o' -> unique_assign_names o ->
    forall ru, sorted_names o ru = sorted_names o' ru.
Proof. exact sorted_names_inv. Qed.
Print Assumptions C09_statement_order_independent_of_set_iteration_order.

Theorem C09_state_slot_layout_independent_of_set_iteration_order :
  forall o o', ode_equiv o o' -> unique_assign_names o -> sorted_states o = sorted_states o'.
Proof. exact sorted_states_inv. Qed.
Print Assumptions C09_state_slot_layout_independent_of_set_iteration_order.

Theorem C09_parameter_and_missing_layout_independent :
  forall o o', ode_equiv o o' -> unique_assign_names o ->
    param_names o = param_names o' /\ missing_names o = missing_names o'.
Proof. intros o o' E U. split; [exact (param_names_inv o o' E)|exact (missing_names_inv o o' E)]. Qed.
Print Assumptions C09_parameter_and_missing_layout_independent.

Theorem C09_generated_functions_independent_of_set_iteration_order :
  forall o o', ode_equiv o o' -> unique_assign_names o ->
    (forall ru order, gen_rhs o ru order = gen_rhs o' ru order)
    /\ (forall ru order, gen_monitor o ru order = gen_monitor o' ru order)
    /\ (forall ru name order, gen_euler o ru name order = gen_euler o' ru name order).
Proof.
  intros o o' E U. split; [|split].
  - exact (gen_rhs_inv o o' E U).
  - exact (gen_monitor_inv o o' E U).
  - exact (gen_euler_inv o o' E U).
Qed.
Print Assumptions C09_generated_functions_independent_of_set_iteration_order.

(* the order relation used for sorting names is total, antisymmetric and transitive - so "sorted
   by name" determines a unique sequence *)
Theorem C09_name_order_is_a_total_order :
  (forall a b, String.leb a b = true \/ String.leb b a = true)
  /\ (forall a b, String.leb a b = true -> String.leb b a = true -> a = b)
  /\ (forall a b c, String.leb a b = true -> String.leb b c = true -> String.leb a c = true).
Proof. split; [exact String.leb_total|split; [exact String.leb_antisym|exact string_leb_trans]]. Qed.
Print Assumptions C09_name_order_is_a_total_order.
