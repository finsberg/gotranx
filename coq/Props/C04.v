(* C04 — Names and array slots agree across every generated function. *)
From GX Require Import Base Expr Ode Target Sem Codegen Valid Theory Examples.
Open Scope string_scope.
Open Scope list_scope.

(* an index table without repeated names is injective onto 0..n-1 and refuses unknown names *)
Theorem C04_index_tables_are_bijections :
  forall tbl : list string,
    NoDup tbl ->
    (forall x i, index_of x tbl = Some i <-> nth_error tbl i = Some x)
    /\ (forall x i, index_of x tbl = Some i -> i < length tbl)
    /\ (forall x y i, index_of x tbl = Some i -> index_of y tbl = Some i -> x = y)
    /\ (forall i, i < length tbl -> exists x, index_of x tbl = Some i)
    /\ (forall x, ~ In x tbl <-> index_of x tbl = None).
Proof. exact index_table_bijective. Qed.
Print Assumptions C04_index_tables_are_bijections.

(* initial values: slot index(x) holds the override given for x (the last, were there several), every other slot its default;
   the array has the declared length; an unknown keyword is refused *)
Theorem C04_init_puts_overrides_in_the_indexed_slot_only :
  forall (T : Type) (tbl : list string),
    NoDup tbl ->
    forall (kw : list (string * T)) (vals r : list T),
      length vals = length tbl ->
      apply_overrides tbl vals kw = Some r ->
      length r = length tbl
      /\ (forall k v, In (k, v) kw -> In k tbl)
      /\ forall i x, nth_error tbl i = Some x ->
           nth_error r i = match last_override x kw with
                           | Some v => Some v
                           | None => nth_error vals i
                           end.
Proof. exact @apply_overrides_spec. Qed.
Print Assumptions C04_init_puts_overrides_in_the_indexed_slot_only.

Theorem C04_init_refuses_unknown_names :
  forall (T : Type) (tbl : list string) (vals : list T) (kw : list (string * T)) k v,
    In (k, v) kw -> ~ In k tbl -> apply_overrides tbl vals kw = None.
Proof. exact @apply_overrides_unknown. Qed.
Print Assumptions C04_init_refuses_unknown_names.

(* a validated rhs writes the result for state X into slot state_index(X) (the slot table [ss]) ...
   (assumed here and in the next theorem: input arrays as long as their tables; no assignment called t or time - or dt, in a function that takes dt) *)
Theorem C04_rhs_writes_slot_state_index :
  forall (T : Type) (N : NumOps T) (o : ode) ss (inp : inputs T) with_dt f,
    sizes_ok o ss inp -> reserved_free o inp with_dt = true ->
    valid_rhs o ss inp with_dt f = true ->
    exists out,
      exec N f with_dt inp = Some out
      /\ length out = length ss
      /\ forall i s, nth_error ss i = Some s ->
           exists v, nth_error out i = Some v /\ Sem N o ss inp with_dt (deriv_name_of s) v.
Proof. exact @rhs_sound. Qed.
Print Assumptions C04_rhs_writes_slot_state_index.

(* ... and validated monitor_values / missing_values write the value of every listed name into the slot
   the table gives it; the declared count is the array length *)
Theorem C04_monitor_writes_slot_monitor_index :
  forall (T : Type) (N : NumOps T) (o : ode) ss (inp : inputs T) with_dt tbl f,
    sizes_ok o ss inp -> reserved_free o inp with_dt = true ->
    valid_named o ss inp with_dt tbl f = true ->
    exists out,
      exec N f with_dt inp = Some out
      /\ length out = length tbl
      /\ forall i n, nth_error tbl i = Some n ->
           exists v, nth_error out i = Some v /\ Sem N o ss inp with_dt n v.
Proof. exact @named_sound. Qed.
Print Assumptions C04_monitor_writes_slot_monitor_index.

(* the argument-order option of rhs changes only the formal parameters, in the mirror of the generator (for the
   Euler scheme: Theory.gen_euler_order_only_formals) *)
Theorem C04_argument_order_changes_formals_only :
  forall o ru ord1 ord2 f1 f2,
    gen_rhs o ru ord1 = Some f1 -> gen_rhs o ru ord2 = Some f2 ->
    f_body f1 = f_body f2 /\ f_nret f1 = f_nret f2 /\ f_name f1 = f_name f2.
Proof. exact gen_rhs_order_only_formals. Qed.
Print Assumptions C04_argument_order_changes_formals_only.

Example C04_example :
  valid_named ex_ode ex_ss ex_inp false ex_monitor_tbl ex_monitor = true
  /\ nodupb ex_ss = true /\ nodupb ex_monitor_tbl = true.
Proof. vm_compute. repeat split. Qed.
