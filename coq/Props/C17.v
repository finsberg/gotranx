(* C17 — Comments, layout and annotations are inert. *)
From GX Require Import Base Ode Load LoadSound Annot Lex Line.
From Coq Require Import Ascii.
Open Scope string_scope.
Open Scope list_scope.

(* comment lines between the items of a model are ignored by the loader, whatever their text and
   wherever they stand *)
Theorem C17_comment_items_are_ignored :
  forall l1 s l2,
    load_comps (l1 ++ IComment s :: l2) = load_comps (l1 ++ l2)
    /\ load (l1 ++ IComment s :: l2) = load (l1 ++ l2).
Proof. exact comment_items_are_ignored. Qed.
Print Assumptions C17_comment_items_are_ignored.

Theorem C17_comment_text_is_irrelevant :
  forall l1 s s' l2, load (l1 ++ IComment s :: l2) = load (l1 ++ IComment s' :: l2).
Proof. exact comment_text_is_irrelevant. Qed.
Print Assumptions C17_comment_text_is_irrelevant.

(* unit / description / trailing-comment annotations (and component tags) do not influence statement
   order or slot layout: two models with the same names and expressions have the same tables *)
Theorem C17_partial_annotations_do_not_change_the_layout :
  forall o o', same_core o o' ->
    (forall ru, sorted_names o ru = sorted_names o' ru)
    /\ sorted_states o = sorted_states o'
    /\ param_names o = param_names o' /\ state_names o = state_names o'.
Proof.
  intros o o' E. repeat split.
  - exact (sorted_names_core o o' E).
  - exact (sorted_states_core o o' E).
  - exact (param_names_core o o' E).
  - exact (state_names_core o o' E).
Qed.
Print Assumptions C17_partial_annotations_do_not_change_the_layout.
(* Partial at the item level: what the lexer does with comments is outside the item model.  Assignment lines and
   the bodies of blocks are modelled from their characters in Line.v (the theorems below); declarations and block
   headers at the character level are outside the model and searched by execution. *)

(* layout inside an expression: the lexer (Lex.lex, the terminals of ode.lark) produces the same tokens whatever white space
   - blanks, tabs, line feeds, form feeds, carriage returns, in any number, at least one behind every token - leads the text and separates the tokens; in
   particular an expression continued over several lines is the expression written on one (where a statement may be
   broken at all is the matter of Line.logical, below) *)
Theorem C17_white_space_between_tokens_is_inert :
  forall lead l, all_chars is_space lead = true -> Forall laid l ->
    lex (lead ++ layout l) = Some (map (fun tw => tok_of (fst tw)) l).
Proof. exact lex_layout. Qed.
Print Assumptions C17_white_space_between_tokens_is_inert.

Theorem C17_two_layouts_of_the_same_tokens_are_read_alike :
  forall lead1 lead2 l1 l2,
    all_chars is_space lead1 = true -> all_chars is_space lead2 = true -> Forall laid l1 -> Forall laid l2 ->
    map fst l1 = map fst l2 ->
    lex (lead1 ++ layout l1) = lex (lead2 ++ layout l2)
    /\ parse_string (lead1 ++ layout l1) = parse_string (lead2 ++ layout l2).
Proof.
  intros lead1 lead2 l1 l2 H1 H2 F1 F2 E. pose proof (layout_is_inert lead1 lead2 l1 l2 H1 H2 F1 F2 E) as H.
  split; [exact H|]. unfold parse_string. rewrite H. reflexivity.
Qed.
Print Assumptions C17_two_layouts_of_the_same_tokens_are_read_alike.

(* comments at the character level: an assignment line is cut at its first "#"; for a code part without "#" the name and the
   expression read (Line.parse_line = cut, Lex.lex, Parse.parse_expr) are those of the bare code, whatever the comment says *)
Theorem C17_the_comment_of_an_assignment_line_is_inert :
  forall codepart c, free_of hash codepart = true ->
    parse_line (codepart ++ String "#"%char c)
    = match parse_line codepart with Some (x, e, _) => Some (x, e, Some c) | None => None end.
Proof. exact comment_is_inert. Qed.
Print Assumptions C17_the_comment_of_an_assignment_line_is_inert.

Theorem C17_two_comments_on_the_same_code_give_the_same_assignment :
  forall codepart c1 c2, free_of hash codepart = true ->
    match parse_line (codepart ++ String "#"%char c1), parse_line (codepart ++ String "#"%char c2) with
    | Some (x1, e1, _), Some (x2, e2, _) => x1 = x2 /\ e1 = e2
    | None, None => True
    | _, _ => False
    end.
Proof. exact line_comment_text_is_irrelevant. Qed.
Print Assumptions C17_two_comments_on_the_same_code_give_the_same_assignment.

(* comment lines and blank lines inside a block (Line.parse_block: the body of a headed expressions block, one assignment per
   line): wherever such a line is put and whatever it says, the assignments read are the same *)
Theorem C17_comment_lines_inside_a_block_are_inert :
  forall ls1 lead c ls2, all_chars is_space lead = true ->
    parse_block (ls1 ++ (String.append lead (String "#"%char c)) :: ls2) = parse_block (ls1 ++ ls2).
Proof. exact comment_lines_are_inert. Qed.
Print Assumptions C17_comment_lines_inside_a_block_are_inert.

Theorem C17_a_block_is_read_as_its_assignment_lines_alone :
  forall ls, parse_block ls = parse_block (filter (fun l => negb (skipped l)) ls).
Proof. exact parse_block_filter. Qed.
Print Assumptions C17_a_block_is_read_as_its_assignment_lines_alone.

(* physical and logical lines (Line.logical: a line feed ends an assignment only outside parentheses - the post-lexer of
   parser.py - and only where an expression can end - not behind + - * / = , ( ; "#" starts a comment whose parentheses do not
   count): lines that are balanced and closed are left alone, and a statement broken inside parentheses or behind an operator
   - however many pieces, blank lines among them, whatever stands around it - is put together again *)
Theorem C17_balanced_lines_are_read_line_by_line :
  forall ls, Forall balanced ls -> logical 0 false EmptyString ls = ls /\ parse_body ls = parse_block ls.
Proof. intros ls H. split; [exact (logical_of_balanced_lines ls H)|exact (parse_body_of_balanced_lines ls H)]. Qed.
Print Assumptions C17_balanced_lines_are_read_line_by_line.

Theorem C17_a_broken_statement_is_one_statement :
  forall ps d op acc last rest,
    pieces_open d op ps -> closes (fst (state_after d op ps)) (snd (state_after d op ps)) last = true ->
    logical d op acc (ps ++ last :: rest)
    = String.append acc (String.append (glue ps) last) :: logical 0 false EmptyString rest.
Proof. exact logical_joins_broken_statement. Qed.
Print Assumptions C17_a_broken_statement_is_one_statement.
