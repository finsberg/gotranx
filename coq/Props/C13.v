(* C13 — A component split yields complementary sub-models that reproduce the full model. *)
From GX Require Import Base Expr Ode Target Sem Codegen Load LoadSound Valid MirrorValid Theory.
Open Scope string_scope.
Open Scope list_scope.

(* each sub-model's missing variables are exactly the names it uses but does not define *)
Theorem C13_missing_variables_are_the_names_used_but_not_defined :
  forall o x,
    In x (missing_names o) <->
    (exists a, In a (assigns o) /\ In x (vars (a_expr a))) /\ known_symbol o x = false.
Proof. exact missing_names_exact. Qed.
Print Assumptions C13_missing_variables_are_the_names_used_but_not_defined.

(* together the halves contain every state of the original ... *)
Theorem C13_halves_contain_every_state :
  forall cs c n, NoDup (map c_name cs) -> In c cs ->
    (In n (map d_name (o_states (ode_of cs))) <->
     In n (map d_name (o_states (to_ode c))) \/ In n (map d_name (o_states (minus cs (c_name c))))).
Proof. exact split_covers_states. Qed.
Print Assumptions C13_halves_contain_every_state.

(* ... each exactly once unless a state is declared in two components *)
Theorem C13_a_state_in_both_halves_is_declared_in_two_components :
  forall cs c n,
    In n (map d_name (o_states (to_ode c))) -> In n (map d_name (o_states (minus cs (c_name c)))) ->
    exists c', In c' cs /\ c_name c' <> c_name c
               /\ In n (map d_name (c_states c')) /\ In n (map d_name (c_states c)).
Proof. exact split_halves_disjoint. Qed.
Print Assumptions C13_a_state_in_both_halves_is_declared_in_two_components.

(* a sub-model every definition of which is a definition of the full model, and whose undefined names (states,
   parameters, missing variables, t, dt) are fed the full model's values, gives every quantity the value it has in
   the full model - for every carrier *)
Theorem C13_fed_submodel_reproduces_the_full_model :
  forall (T : Type) (N : NumOps T) (ofull osub : ode) ssf sss (inpf inps : inputs T) wd,
    (forall x a, find_assign osub x = Some a -> find_assign ofull x = Some a) ->
    (forall x v, find_assign osub x = None -> base osub sss inps wd x = Some v ->
                 Sem N ofull ssf inpf wd x v) ->
    forall x v, Sem N osub sss inps wd x v -> Sem N ofull ssf inpf wd x v.
Proof. exact @sub_sem_transfer. Qed.
Print Assumptions C13_fed_submodel_reproduces_the_full_model.

(* the generated missing_values function, once validated: slot i holds the meaning of the i-th requested name
   (assumed: input arrays as long as their tables; no assignment called t or time - or dt, in a function that takes dt) *)
Theorem C13_validated_missing_values_writes_the_requested_names :
  forall (T : Type) (N : NumOps T) (o : ode) ss (inp : inputs T) with_dt tbl f,
    sizes_ok o ss inp -> reserved_free o inp with_dt = true ->
    valid_named o ss inp with_dt tbl f = true ->
    exists out,
      exec N f with_dt inp = Some out
      /\ length out = length tbl
      /\ forall i n, nth_error tbl i = Some n ->
           exists v, nth_error out i = Some v /\ Sem N o ss inp with_dt n v.
Proof. exact @named_sound. Qed.
Print Assumptions C13_validated_missing_values_writes_the_requested_names.

(* the mirror of missing_values(values) is a verified compiler too: for every well-formed model (wf_gen) with a
   statement order and every request (distinct names of the model, distinct slots below the number of requested names) the generated
   function - requested states and parameters first, then assignments until every requested name has been
   written, a requested parameter unpacked even when remove_unused drops it elsewhere - passes the validator
   and returns in slot i the documented meaning of the name requested for slot i.  The implementation's
   missing_values is compared with this function statement by statement. *)
Theorem C13_mirror_missing_values_is_correct_for_every_well_formed_model :
  forall (T : Type) (N : NumOps T) (o : ode) ru order ss ord req tbl f (inp : inputs T),
    sorted_states o = Some ss -> sorted_names o false = Some ord -> MirrorValid.wf_gen o ss false = true ->
    NoDup (keys req) ->
    (forall x i, lookup x req = Some i -> i < length req) ->
    (forall x y i, lookup x req = Some i -> lookup y req = Some i -> x = y) ->
    (forall x, In x (keys req) -> In x (all_names o)) ->
    length tbl = length req ->
    (forall i x, nth_error tbl i = Some x -> lookup x req = Some i) ->
    gen_missing_values o ru req order = Some f ->
    sizes_ok o ss inp ->
    valid_named o ss inp false tbl f = true
    /\ exists out,
        exec N f false inp = Some out
        /\ length out = length tbl
        /\ forall i n, nth_error tbl i = Some n ->
             exists v, nth_error out i = Some v /\ Sem N o ss inp false n v.
Proof. exact @MirrorValid.mirror_missing_correct. Qed.
Print Assumptions C13_mirror_missing_values_is_correct_for_every_well_formed_model.
