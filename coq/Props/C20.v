(* C20 — Symbolic right-hand side and Jacobian matrices are those of the model. *)
From Coq Require Import Reals.
From GX Require Import Base Expr Ode OrderSound Schemes Sympytools RealsC DiffR Examples.
Close Scope Q_scope. Close Scope R_scope.
Open Scope string_scope.
Open Scope list_scope.

(* every substitution round preserves the meaning, so each entry of the symbolic right-hand side has
   the value of the corresponding derivative's own expression, with every intermediate and every state
   derivative an expression reads standing for its definition - in any carrier, for any environment consistent with the definitions.
   The mirror substitutes syntactically; that the simplifications sympy applies as it rebuilds an expression keep
   its value is not modelled (the check evaluates both at sample inputs) *)
Theorem C20_symbolic_rhs_has_the_meaning_of_the_derivatives :
  forall (T : Type) (N : NumOps T) (o : ode) (rho : string -> T),
    (forall x a, find (fun a => String.eqb (a_name a) x) (assigns o) = Some a ->
                 rho x = eval N rho (a_expr a)) ->
    forall max_tries es ord,
      sorted_names o false = Some ord ->
      rhs_matrix o max_tries = Some es ->
      map (eval N rho) es = map (eval N rho) (rhs_init o ord).
Proof. exact @rhs_matrix_meaning. Qed.
Print Assumptions C20_symbolic_rhs_has_the_meaning_of_the_derivatives.

(* whenever a right-hand side is produced, every defined name - intermediate or state derivative read by an
   expression - has been expanded: no entry mentions a name that has a definition (in a loaded model, where every
   symbol is defined, the entries are functions of states, parameters and time alone) *)
Theorem C20_symbolic_rhs_is_fully_expanded :
  forall o max_tries es, rhs_matrix o max_tries = Some es -> existsb (mentions_assigned o) es = false.
Proof. exact rhs_matrix_fully_expanded. Qed.
Print Assumptions C20_symbolic_rhs_is_fully_expanded.

(* "produced for any acyclic dependency depth": whenever the model has a statement order at all (its
   assignments do not depend on each other cyclically), the right-hand side and the Jacobian are
   produced with the default bound - after at most one substitution round, because every definition
   was expanded after the definitions it reads (soundness of the topological order) *)
Theorem C20_rhs_is_produced_for_any_acyclic_dependency_depth :
  forall o ord, sorted_names o false = Some ord -> exists es, rhs_matrix o (default_tries o) = Some es.
Proof. exact rhs_matrix_total. Qed.
Print Assumptions C20_rhs_is_produced_for_any_acyclic_dependency_depth.

Theorem C20_jacobian_is_produced_for_any_acyclic_dependency_depth :
  forall o ord, sorted_names o false = Some ord ->
    forall ss, sorted_states o = Some ss -> exists j, jacobian o (default_tries o) = Some j.
Proof. exact jacobian_total. Qed.
Print Assumptions C20_jacobian_is_produced_for_any_acyclic_dependency_depth.

(* the Jacobian entries are D applied to the expanded entries (next theorem), and D is the derivative over the
   reals with all other names held fixed - on the smooth fragment at points of its domain (DiffR.dom; Pow, abs,
   Conditional and the rest are left out).  That sympy's own .jacobian computes what D computes is compared by
   execution, not proved *)
Theorem C20_jacobian_entries_are_derivatives :
  forall (rho : string -> R) x e,
    dom rho x e ->
    Coquelicot.Derive.is_derive (K := Coquelicot.Hierarchy.R_AbsRing) (V := Coquelicot.Hierarchy.R_NormedModule)
      (fun v : R => eval ROps (upd rho x v) e) (rho x) (eval ROps rho (D x e)).
Proof. exact D_sound. Qed.
Print Assumptions C20_jacobian_entries_are_derivatives.

(* the state vector uses the slot order of the generated code: both are Ode.sorted_states *)
Theorem C20_jacobian_uses_the_generated_state_order :
  forall o mt j, jacobian o mt = Some j ->
    exists es ss, rhs_matrix o mt = Some es /\ sorted_states o = Some ss
                  /\ j = map (fun e => map (fun s => D s e) ss) es.
Proof.
  intros o mt j. unfold jacobian.
  destruct (rhs_matrix o mt) as [es|]; [|discriminate].
  destruct (sorted_states o) as [ss|]; [|discriminate].
  intros [= <-]. eauto.
Qed.
Print Assumptions C20_jacobian_uses_the_generated_state_order.

(* dependency depth: the intermediates are expanded in dependency order first, so one substitution round
   suffices for a chain of any length (instantiated at 20 and 40; the code as found at the pinned commit
   substituted the raw definitions at most 20 times and refused the chain of 20) *)
Fixpoint chain_name (i : nat) : string :=
  match i with O => "c" | S j => String.append (chain_name j) "x" end.
Definition chain_ode (n : nat) : ode :=
  {| o_states := [ {| d_name := "s"; d_value := lit 1; d_comps := [""]; d_unit := None; d_desc := None |} ];
     o_params := [];
     o_inters := map (fun i => {| a_name := chain_name (S i);
                                  a_expr := EAdd (EVar (chain_name i)) (lit 1);
                                  a_comps := [""]; a_unit := None; a_comment := None |}) (seq 0 n)
                 ++ [ {| a_name := "c"; a_expr := EVar "s"; a_comps := [""]; a_unit := None; a_comment := None |} ];
     o_derivs := [ {| a_name := "ds_dt"; a_expr := EVar (chain_name n); a_comps := [""]; a_unit := None; a_comment := None |} ] |}.

Lemma chain_name_shape i : exists t, chain_name i = String.append "c" t /\ String.length t = i.
Proof.
  induction i as [|i (t & E & L)]; [exists ""; auto|].
  exists (String.append t "x"). cbn [chain_name]. rewrite E. split; [reflexivity|].
  rewrite length_append, L. apply Nat.add_1_r.
Qed.

(* the chain is acyclic for every length: rank the names by their length, the state below and the derivative above *)
Lemma chain_is_ordered n : exists ord, sorted_names (chain_ode n) false = Some ord.
Proof.
  apply sorted_names_iff_ranked.
  set (rank x := if String.eqb x "s" then 0 else if String.eqb x "ds_dt" then S (S n) else String.length x).
  assert (Hr : forall i, rank (chain_name i) = S i).
  { intros i. destruct (chain_name_shape i) as (t & -> & <-). reflexivity. }
  exists rank. intros x d _ Hd. apply deps_are_read in Hd as (a & Ha & <- & Hd).
  apply in_app_or in Ha as [Ha|[<-|[]]]; [apply in_app_or in Ha as [Ha|[<-|[]]]|].
  - apply in_map_iff in Ha as (i & <- & _). destruct Hd as [<-|[]].
    cbn [a_name]. rewrite !Hr. apply Nat.lt_succ_diag_r.
  - destruct Hd as [<-|[]]. apply Nat.lt_0_1.
  - destruct Hd as [<-|[]]. cbn [a_name]. rewrite Hr. apply Nat.lt_succ_diag_r.
Qed.

Theorem chain_rhs_is_produced n mt : 2 <= mt -> exists es, rhs_matrix (chain_ode n) mt = Some es.
Proof. destruct (chain_is_ordered n) as [ord H]. exact (rhs_matrix_two _ ord H mt). Qed.

Example C20_depth_beyond_twenty :
  (exists es, rhs_matrix (chain_ode 20) 20 = Some es)
  /\ (exists es, rhs_matrix (chain_ode 20) (default_tries (chain_ode 20)) = Some es)
  /\ (exists es, rhs_matrix (chain_ode 40) (default_tries (chain_ode 40)) = Some es)
  /\ (exists es, rhs_matrix (chain_ode 40) 2 = Some es).
Proof. repeat split; apply chain_rhs_is_produced, Nat.leb_le; reflexivity. Qed.

(* an intermediate that reads a state derivative (r = 2*dx_dt; dy_dt = r + y): the right-hand side of y is expanded
   down to states - (x*3)*2 + y - and its Jacobian row sees the dependence on x through dx_dt *)
Definition mkd n v := {| d_name := n; d_value := lit v; d_comps := [""]; d_unit := None; d_desc := None |}.
Definition mka n e := {| a_name := n; a_expr := e; a_comps := [""]; a_unit := None; a_comment := None |}.
Definition deriv_reader : ode :=
  {| o_states := [mkd "x" 1; mkd "y" 2]; o_params := [];
     o_inters := [mka "r" (EMul (EVar "dx_dt") (lit 2))];
     o_derivs := [mka "dx_dt" (EMul (EVar "x") (lit 3)); mka "dy_dt" (EAdd (EVar "r") (EVar "y"))] |}.

Example C20_a_derivative_read_by_an_intermediate_is_expanded :
  rhs_matrix deriv_reader (default_tries deriv_reader)
  = Some [EMul (EVar "x") (lit 3); EAdd (EMul (EMul (EVar "x") (lit 3)) (lit 2)) (EVar "y")].
Proof. vm_compute. reflexivity. Qed.
