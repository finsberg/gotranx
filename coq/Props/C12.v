(* C12 — Removing unused variables never changes results. *)
From GX Require Import Base Expr Ode Target Sem Codegen Valid MirrorValid Carriers Theory Examples.
From Coq Require Import Lia.
Open Scope string_scope.
Open Scope list_scope.

(* Two rhs programs for one model that both pass the validator - in particular the one generated
   with removal of unused variables and the one generated without - run without reading an
   unbound name and return the same array, of the same length, in the same slot layout [ss].
   Assumed: input arrays as long as their tables; no assignment called t or time - or dt, in a function that takes dt. *)
Theorem C12_rhs_with_and_without_removal_agree :
  forall (T : Type) (N : NumOps T) (o : ode) ss (inp : inputs T) with_dt f1 f2,
    sizes_ok o ss inp -> reserved_free o inp with_dt = true ->
    valid_rhs o ss inp with_dt f1 = true -> valid_rhs o ss inp with_dt f2 = true ->
    exists out, exec N f1 with_dt inp = Some out /\ exec N f2 with_dt inp = Some out
                /\ length out = length ss.
Proof. exact @rhs_agree. Qed.
Print Assumptions C12_rhs_with_and_without_removal_agree.

(* for the mirror of the generator no validation is assumed: every well-formed model (wf_gen) with a statement
   order, whatever the two argument orders *)
Theorem C12_mirror_rhs_unchanged_by_removal_for_every_well_formed_model :
  forall (T : Type) (N : NumOps T) (o : ode) order1 order2 ss f1 f2 (inp : inputs T),
    sorted_states o = Some ss -> MirrorValid.wf_gen o ss false = true ->
    gen_rhs o false order1 = Some f1 -> gen_rhs o true order2 = Some f2 ->
    sizes_ok o ss inp ->
    exists out, exec N f1 false inp = Some out /\ exec N f2 false inp = Some out /\ length out = length ss.
Proof. exact @mirror_rhs_removal_invariant. Qed.
Print Assumptions C12_mirror_rhs_unchanged_by_removal_for_every_well_formed_model.

(* the same for the explicit Euler scheme: each validated program computes
   states + dt * (meaning of the derivative), hence they agree - in carriers whose + and * commute; assumed: input
   arrays as long as their tables; no assignment called dt, t or time; no state so called or also an assignment
   (states_clean), none twice in ss *)
Theorem C12_validated_euler_is_determined :
  forall (T : Type) (N : NumOps T) (o : ode) ss (inp : inputs T) with_dt f,
    CommOps N -> with_dt = true ->
    sizes_ok o ss inp -> reserved_free o inp with_dt = true ->
    states_clean o ss inp with_dt = true -> NoDup ss ->
    valid_euler o ss inp with_dt f = true ->
    exists out,
      exec N f with_dt inp = Some out
      /\ length out = length ss
      /\ forall i s, nth_error ss i = Some s ->
           exists sv fv,
             nth_error (in_states inp) i = Some sv
             /\ Sem N o ss inp with_dt (deriv_name_of s) fv
             /\ nth_error out i = Some (add N sv (mul N (in_dt inp) fv)).
Proof. exact @euler_sound. Qed.
Print Assumptions C12_validated_euler_is_determined.

(* a validated body never reads a name whose definition or unpacking is missing: execution of
   the statement list succeeds (None would be the NameError / IndexError of the real program) *)
Theorem C12_validated_body_never_reads_an_unbound_name :
  forall (T : Type) (N : NumOps T) (o : ode) ss (inp : inputs T) with_dt (f : func),
    sizes_ok o ss inp -> reserved_free o inp with_dt = true ->
    valid_body o ss inp with_dt (f_nret f) (reserved inp with_dt) (f_body f) = true ->
    exists out, exec N f with_dt inp = Some out /\ length out = f_nret f.
Proof. exact @exec_total. Qed.
Print Assumptions C12_validated_body_never_reads_an_unbound_name.

(* non-vacuity: on the example model (which has an unused intermediate and an unused parameter)
   both variants are accepted, really differ as programs, and compute the same array *)
Example C12_example :
  valid_rhs ex_ode ex_ss ex_inp false (ex_rhs false) = true
  /\ valid_rhs ex_ode ex_ss ex_inp false (ex_rhs true) = true
  /\ length (f_body (ex_rhs true)) < length (f_body (ex_rhs false))
  /\ exec QcOps (ex_rhs true) false ex_inp = exec QcOps (ex_rhs false) false ex_inp
  /\ exec QcOps (ex_rhs true) false ex_inp <> None.
Proof.
  split; [exact (proj1 ex_rhs_valid)|]. split; [exact (proj2 ex_rhs_valid)|].
  (* bound by a beta-redex, each of the two programs is generated once when coqchk re-evaluates the cast lazily *)
  pattern (ex_rhs true), (ex_rhs false). vm_compute. repeat split; [lia|discriminate].
Qed.
