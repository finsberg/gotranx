(* C14 — Generated NumPy functions are vectorised: columns are independent. *)
From GX Require Import Base Expr Target Batch.
Open Scope string_scope.
Open Scope list_scope.

(* Over the batch carrier - a value is a function from the column index to a scalar and every
   operation acts column by column - the result of a function body for a batch is, in column j, the
   result of the same body for column j alone; the batch call fails exactly when the single-column
   call fails.  For every body (any nesting of conditionals, connectives, abs, floor, Mod), every
   batch width and every scalar carrier.  That numpy applies a printed construct column by column is what the
   batch carrier (Batch.VOps) assumes; the harness checks that every generated right-hand side uses such
   constructs only (numpy.where, numpy.logical_*, ... - not a Python conditional expression). *)
Theorem C14_batch_result_is_columnwise :
  forall (T : Type) (N : NumOps T) (f : func) (wd : bool) (inp : inputs (nat -> T)) (j : nat),
    exec N f wd (col_inputs j inp) =
    match exec (VOps N) f wd inp with
    | Some out => Some (map (fun v => v j) out)
    | None => None
    end.
Proof. exact @exec_columnwise. Qed.
Print Assumptions C14_batch_result_is_columnwise.

Theorem C14_every_expression_is_evaluated_column_by_column :
  forall (T : Type) (N : NumOps T) (rho : string -> nat -> T) e j,
    eval (VOps N) rho e j = eval N (fun x => rho x j) e.
Proof. exact @eval_columnwise. Qed.
Print Assumptions C14_every_expression_is_evaluated_column_by_column.
