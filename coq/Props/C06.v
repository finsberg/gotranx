(* C06 — Generalized Rush-Larsen step follows the exponential-integrator formula, guarded. *)
From Coq Require Import Reals QArith.
From GX Require Import Base Expr Ode Target Sem Valid Schemes RealsC DiffR MirrorValid MirrorRL.
Close Scope Q_scope.
Close Scope R_scope.
Open Scope string_scope.
Open Scope list_scope.

(* A validated generalized Rush-Larsen program (every state stiff) returns per state, by the mode the table
   [modes] gives the state's slot and the validator has found the update to have,
     x + (f/g)(exp(g dt) - 1)                                  MPlain: the generator found the guard unnecessary,
     x + select(|g| > delta, (f/g)(exp(g dt) - 1), dt f)        MGuard,
     x + dt f                                                    MEuler: sympy found g identically zero,
   with f the meaning of d<x>_dt and g the meaning of the helper d<x>_dt_linearized, whose
   definition in the extended model is the derivative D of the rate with respect to x, all other
   names held fixed (unless the model itself defines a name d<x>_dt_linearized, which then comes first: the
   generator refuses such a model, the mirror theorem below assumes there is none).  Which mode the generator gives a state (Schemes.predict_mode mirrors it) is not part of the
   statement.  For every carrier with the seven equations of Schemes.FieldLaws.  Assumed, of the model extended
   by the helpers: input arrays as long as their tables; no assignment called dt, t or time; no state so called or
   also an assignment (states_clean), none twice in ss. *)
Theorem C06_validated_step_follows_the_formula :
  forall (T : Type) (N : NumOps T) (o : ode) ss (inp : inputs T),
    FieldLaws N ->
    forall modes delta f,
    sizes_ok (extend_lin o) ss inp -> reserved_free (extend_lin o) inp true = true ->
    states_clean (extend_lin o) ss inp true = true -> NoDup ss ->
    valid_scheme o ss inp modes all_stiff delta f = true ->
    exists out,
      exec N f true inp = Some out
      /\ length out = length ss
      /\ forall i s, nth_error ss i = Some s ->
           exists sv fv gv,
             nth_error (in_states inp) i = Some sv
             /\ Sem N (extend_lin o) ss inp true (deriv_name_of s) fv
             /\ (slot_mode modes all_stiff i s = MEuler
                 \/ Sem N (extend_lin o) ss inp true (lin_name (deriv_name_of s)) gv)
             /\ nth_error out i
                = Some (slot_value N (slot_mode modes all_stiff i s) delta sv fv gv (in_dt inp)).
Proof. intros T N o ss inp HF modes. exact (scheme_sound N o ss inp HF modes all_stiff). Qed.
Print Assumptions C06_validated_step_follows_the_formula.

(* the helper's definition is D: its free names are among those of the rate *)
Theorem C06_linearisation_reads_only_what_the_rate_reads :
  forall x e y, In y (vars (D x e)) -> In y (vars e).
Proof. exact D_vars. Qed.
Print Assumptions C06_linearisation_reads_only_what_the_rate_reads.

(* the reals satisfy the seven equations (FieldLaws) the formula theorem needs *)
Theorem C06_reals_satisfy_the_field_laws : FieldLaws ROps.
Proof. exact ROps_field. Qed.
Print Assumptions C06_reals_satisfy_the_field_laws.

(* over the reals: the guarded slot is the RL formula when |g| > delta and the Euler update when
   |g| <= delta (delta honoured) ... *)
Theorem C06_guarded_slot_over_the_reals :
  forall (delta : Q) (sv fv gv dtv : R),
    slot_value ROps MGuard delta sv fv gv dtv =
    if Rlt_dec (Q2R delta) (Rabs gv)
    then (sv + fv / gv * (exp (gv * dtv) - Q2R 1))%R
    else (sv + dtv * fv)%R.
Proof. exact guarded_slot_value. Qed.
Print Assumptions C06_guarded_slot_over_the_reals.

(* ... a passed guard excludes division by zero (delta >= 0) ... *)
Theorem C06_guard_excludes_division_by_zero :
  forall g delta : R, (0 <= delta)%R -> r_nz (rel ROps Rgt (Rabs g) delta) = true -> g <> 0%R.
Proof. exact guard_excludes_zero. Qed.
Print Assumptions C06_guard_excludes_division_by_zero.

(* ... and the step is exact for rates affine in their own state: with f = a*x + b, so that g = a <> 0, the formula's
   x + (f/g)(exp(g dt) - 1) is the solution (x + b/a) exp(a dt) - b/a of x' = a x + b at time dt *)
Theorem C06_exact_for_affine_rates :
  forall a b x dt : R, a <> 0%R ->
    (x + (a * x + b) / a * (exp (a * dt) - 1) = (x + b / a) * exp (a * dt) - b / a)%R.
Proof. exact rl_exact_for_affine. Qed.
Print Assumptions C06_exact_for_affine_rates.

(* g: the helper's defining expression D x e is, over the reals, the derivative of the rate e as a
   function of the own state x with every other name held fixed - on the smooth fragment at points of its
   domain (DiffR.dom: + - * / neg exp sin cos tan atan log sqrt; Pow, Mod, abs, floor, asin, acos, relations,
   connectives and Conditional are left out) *)
Theorem C06_linearisation_is_the_derivative_with_respect_to_the_own_state :
  forall (rho : string -> R) x e,
    dom rho x e ->
    Coquelicot.Derive.is_derive (K := Coquelicot.Hierarchy.R_AbsRing) (V := Coquelicot.Hierarchy.R_NormedModule)
      (fun v : R => eval ROps (upd rho x v) e) (rho x) (eval ROps rho (D x e)).
Proof. exact D_sound. Qed.
Print Assumptions C06_linearisation_is_the_derivative_with_respect_to_the_own_state.

(* with |g| <= delta (in particular g = 0) the guarded slot is the Euler update *)
Theorem C06_guarded_slot_is_euler_when_g_is_small :
  forall (delta : Q) (sv fv gv dtv : R),
    (Rabs gv <= Q2R delta)%R -> slot_value ROps MGuard delta sv fv gv dtv = (sv + dtv * fv)%R.
Proof. exact guarded_slot_euler_when_small. Qed.
Print Assumptions C06_guarded_slot_is_euler_when_g_is_small.

(* "consequently it converges to the Euler step as dt -> 0": as a function of dt, every slot (Euler,
   guarded, plain) equals the state at dt = 0 and has slope f there, exactly as the Euler update
   x + dt*f has - the two steps differ by o(dt).  The plain formula needs g <> 0, which is what the
   guard (or the verdict that replaces it) is there for; the guarded one delta >= 0. *)
Theorem C06_step_agrees_with_euler_to_first_order_in_dt :
  forall (md : mode) (delta : Q) (x f g : R),
    (md = MPlain -> g <> 0%R) -> (0 <= Q2R delta)%R ->
    slot_value ROps md delta x f g 0%R = x
    /\ Coquelicot.Derive.is_derive (K := Coquelicot.Hierarchy.R_AbsRing) (V := Coquelicot.Hierarchy.R_NormedModule)
         (fun dt : R => slot_value ROps md delta x f g dt) 0%R f.
Proof. exact slot_first_order_is_euler. Qed.
Print Assumptions C06_step_agrees_with_euler_to_first_order_in_dt.

(* the mirror of the Rush-Larsen generator is a verified compiler: for every well-formed model (wf_gen, dt reserved)
   with a statement order - whose names stay unique and unreserved, and whose missing variables stay the same, after
   adding the helpers d<state>_dt_linearized -, every set of stiff states and every assignment of modes to the states
   (the per-state decision Euler / guarded / plain that sympy makes and the check reads off the code), the generated
   function passes the validator and, on input arrays as long as their tables, returns in every slot the value the
   property prescribes for that slot's mode, in any carrier with the seven equations of Schemes.FieldLaws.  The
   implementation's generalized and hybrid functions are compared with this function statement by statement. *)
Theorem C06_mirror_rush_larsen_is_correct_for_every_well_formed_model :
  forall (T : Type) (N : NumOps T) (o : ode) ru modes stiff delta name order ss f (inp : inputs T),
    FieldLaws N ->
    sorted_states o = Some ss -> wf_gen o ss true = true ->
    NoDup (all_names (extend_lin o)) ->
    (forall x, In x (all_names (extend_lin o)) -> resv true x = false) ->
    (forall x, In x (missing_names (extend_lin o)) -> resv true x = false) ->
    missing_names (extend_lin o) = missing_names o ->
    gen_rl o ru modes stiff delta name order = Some f ->
    sizes_ok o ss inp ->
    valid_scheme o ss inp modes stiff delta f = true
    /\ exists out,
        exec N f true inp = Some out
        /\ List.length out = List.length ss
        /\ forall i s, nth_error ss i = Some s ->
             exists sv fv gv,
               nth_error (in_states inp) i = Some sv
               /\ Sem N (extend_lin o) ss inp true (deriv_name_of s) fv
               /\ (slot_mode modes stiff i s = MEuler \/ Sem N (extend_lin o) ss inp true (lin_name (deriv_name_of s)) gv)
               /\ nth_error out i = Some (slot_value N (slot_mode modes stiff i s) delta sv fv gv (in_dt inp)).
Proof. exact @mirror_rl_correct. Qed.
Print Assumptions C06_mirror_rush_larsen_is_correct_for_every_well_formed_model.
