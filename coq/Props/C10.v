(* C10 — The model does not depend on the order in which statements are written. *)
From GX Require Import Base Ode OrderSound Codegen Load Perm LoadPerm.
From Coq Require Import Permutation.
Open Scope string_scope.
Open Scope list_scope.

(* The loader collects the atoms of a text into sets.  [ops items] is the sequence of atomic insertions
   (one per entry / line and component) the loader performs for an item list; permuting blocks, entries
   inside a states / parameters block or lines inside an expressions block permutes that sequence
   (C10_the_permutations_of_the_property_permute_the_insertions).  If the first text loads, so does the
   permuted one, to an equivalent model, and the statement order, the slot layouts and the rhs, monitor_values
   and explicit Euler functions are identical (the Rush-Larsen schemes and missing_values are not stated) - for
   the loader mirror and the mirror generators, whose agreement with the implementation is checked on every
   generated model and every generated permutation: *)
Theorem C10_permuted_text_loads_to_the_same_model_and_the_same_code :
  forall items1 items2 o1,
    Permutation (ops items1) (ops items2) ->
    load items1 = Ok o1 ->
    exists o2, load items2 = Ok o2
      /\ ode_equiv o1 o2
      /\ (forall ru, sorted_names o1 ru = sorted_names o2 ru)
      /\ sorted_states o1 = sorted_states o2
      /\ param_names o1 = param_names o2 /\ missing_names o1 = missing_names o2
      /\ (forall ru order, gen_rhs o1 ru order = gen_rhs o2 ru order)
      /\ (forall ru order, gen_monitor o1 ru order = gen_monitor o2 ru order)
      /\ (forall ru name order, gen_euler o1 ru name order = gen_euler o2 ru name order).
Proof. exact permuted_text_same_code. Qed.
Print Assumptions C10_permuted_text_loads_to_the_same_model_and_the_same_code.

Theorem C10_the_permutations_of_the_property_permute_the_insertions :
  (forall items1 items2, Permutation items1 items2 -> Permutation (ops items1) (ops items2))
  /\ (forall pre post comps es es', Permutation es es' ->
        Permutation (ops (pre ++ IStates comps es :: post)) (ops (pre ++ IStates comps es' :: post))
        /\ Permutation (ops (pre ++ IParams comps es :: post)) (ops (pre ++ IParams comps es' :: post)))
  /\ (forall pre post comps ls ls', Permutation ls ls' ->
        Permutation (ops (pre ++ IExprs comps ls :: post)) (ops (pre ++ IExprs comps ls' :: post))).
Proof. split; [exact ops_perm_blocks|split; [exact ops_perm_entries|exact ops_perm_lines]]. Qed.
Print Assumptions C10_the_permutations_of_the_property_permute_the_insertions.

(* the second half on its own: for ode_equiv models (the same definitions, listed in another order) whose assignments
   have distinct names, those orders, layouts and functions are identical *)

Theorem C10_statement_order_and_slot_layout_do_not_depend_on_list_order :
  forall o o', ode_equiv o o' -> unique_assign_names o ->
    (forall ru, sorted_names o ru = sorted_names o' ru)
    /\ sorted_states o = sorted_states o'
    /\ state_names o = state_names o' /\ param_names o = param_names o'
    /\ inter_names o = inter_names o' /\ deriv_names o = deriv_names o'
    /\ missing_names o = missing_names o'.
Proof.
  intros o o' E U. repeat split.
  - exact (sorted_names_inv o o' E U).
  - exact (sorted_states_inv o o' E U).
  - exact (state_names_inv o o' E).
  - exact (param_names_inv o o' E).
  - exact (inter_names_inv o o' E).
  - exact (deriv_names_inv o o' E).
  - exact (missing_names_inv o o' E).
Qed.
Print Assumptions C10_statement_order_and_slot_layout_do_not_depend_on_list_order.

Theorem C10_generated_code_does_not_depend_on_list_order :
  forall o o', ode_equiv o o' -> unique_assign_names o ->
    (forall ru order, gen_rhs o ru order = gen_rhs o' ru order)
    /\ (forall ru order, gen_monitor o ru order = gen_monitor o' ru order)
    /\ (forall ru name order, gen_euler o ru name order = gen_euler o' ru name order).
Proof.
  intros o o' E U. split; [|split].
  - exact (gen_rhs_inv o o' E U).
  - exact (gen_monitor_inv o o' E U).
  - exact (gen_euler_inv o o' E U).
Qed.
Print Assumptions C10_generated_code_does_not_depend_on_list_order.

(* use before definition is allowed: a definition is found by name wherever it stands *)
Theorem C10_definitions_are_found_by_name_wherever_they_stand :
  forall o o', ode_equiv o o' -> unique_assign_names o -> forall x, find_assign o x = find_assign o' x.
Proof. exact find_assign_inv. Qed.
Print Assumptions C10_definitions_are_found_by_name_wherever_they_stand.

(* "use-before-definition in the text is allowed": whether the assignments of a model can be ordered is
   decided by the dependency relation alone - an order is found exactly when the definitions can be ranked
   (are acyclic), whatever position they have in the text; in particular a model one listing of which defines
   everything before its use is ordered from every other listing too *)
Theorem C10_an_order_exists_iff_the_definitions_are_acyclic :
  forall o ru,
    (exists ord, sorted_names o ru = Some ord)
    <-> exists rank : string -> nat,
          forall n d, In n (all_assign_names o) -> In d (deps_of o n) -> rank d < rank n.
Proof. exact sorted_names_iff_ranked. Qed.
Print Assumptions C10_an_order_exists_iff_the_definitions_are_acyclic.

Theorem C10_a_model_listed_in_dependency_order_somewhere_is_always_ordered :
  forall o ru (listing : list string),
    NoDup listing ->
    (forall n, In n (all_assign_names o) -> In n listing) ->
    (forall pre n post, listing = pre ++ n :: post -> In n (all_assign_names o) ->
       forall d, In d (deps_of o n) -> In d (all_assign_names o) -> In d pre) ->
    exists ord, sorted_names o ru = Some ord.
Proof. exact listed_in_dependency_order_is_sorted. Qed.
Print Assumptions C10_a_model_listed_in_dependency_order_somewhere_is_always_ordered.
