(* C19 — Model identifiers never collide with names the generated code uses itself. *)
From GX Require Import Base Expr Ode Target Sem Valid Capture JaxNames.
Open Scope string_scope.
Open Scope list_scope.

(* In a validated function body every name is bound exactly once (no model name is captured by a
   later binding of the same name) and no bound name is one of the function's own scalar formals
   dt / t / time (no model name captures them); the unpack statements moreover bind only declared
   states / parameters / missing variables at their own slots (Sem.ok_stmt).
   Partial: the other names of the property (states, parameters, values, shape, missing_variables, the numerical
   library, language keywords) are not in the namespace Target.v models - the arrays are not entries of the
   environment - so their capture cannot be stated here; it is searched by execution (harness/c19.py). *)
Theorem C19_validated_body_binds_each_name_once :
  forall (T : Type) (o : ode) ss (inp : inputs T) wd nret body,
    valid_body o ss inp wd nret (reserved inp wd) body = true -> NoDup (bound_names body).
Proof. exact @valid_body_binds_each_name_once. Qed.
Print Assumptions C19_validated_body_binds_each_name_once.

Theorem C19_validated_body_never_rebinds_a_formal :
  forall (T : Type) (o : ode) ss (inp : inputs T) wd nret body x,
    valid_body o ss inp wd nret (reserved inp wd) body = true ->
    In x (bound_names body) -> ~ In x (reserved inp wd).
Proof. exact @valid_body_does_not_capture_formals. Qed.
Print Assumptions C19_validated_body_never_rebinds_a_formal.

(* consistently renaming identifiers does not change values: evaluating the renamed expression is
   evaluating the original in the renamed environment, and exactly the renamed names occur *)
Theorem C19_renaming_identifiers_preserves_values :
  forall (T : Type) (N : NumOps T) r rho e,
    eval N rho (rename r e) = eval N (fun x => rho (r x)) e.
Proof. exact @eval_rename. Qed.
Print Assumptions C19_renaming_identifiers_preserves_values.

Theorem C19_renaming_renames_exactly_the_occurring_names :
  forall r e, vars (rename r e) = map r (vars e).
Proof. exact vars_rename. Qed.
Print Assumptions C19_renaming_renames_exactly_the_occurring_names.

(* the jax backend keeps its output slots in local variables _values_<i>, as many as the function returns (more
   than there are states in monitor_values and missing_values).  Assumed (slot_free): no name the validated function
   binds - an unpacked state, parameter or missing variable, or a let - or reads has the form _values_<digits>.  Then
   reading the slot variables off the final environment gives exactly the array of the numpy function - no slot
   captures a model name and no model name captures a slot, for any number of slots.  gotranx establishes the
   assumption in part only: CodeGenerator._check_names refuses such a name (reserved_pattern) among the states,
   parameters, intermediates and derivatives of the model it is given, and does not look at that model's missing
   variables; for a sub-model that misses a variable called _values_<i> the theorem says nothing. *)
Theorem C19_jax_slot_variables_capture_nothing_outside_the_refused_pattern :
  forall (T : Type) (N : NumOps T) (o : ode) (ss : list string) (inp : inputs T) (wd : bool) f ok,
    sizes_ok o ss inp -> reserved_free o inp wd = true ->
    valid_fun o ss inp wd f ok = true ->
    slot_free slot_name (f_body f) ->
    exists out, exec_jax_names N slot_name f wd inp = Some out /\ exec N f wd inp = Some out /\ length out = f_nret f.
Proof. exact @jax_names_equal_numpy. Qed.
Print Assumptions C19_jax_slot_variables_capture_nothing_outside_the_refused_pattern.

Theorem C19_slot_names_are_pairwise_distinct : forall i j, slot_name i = slot_name j -> i = j.
Proof. exact slot_name_inj. Qed.
Print Assumptions C19_slot_names_are_pairwise_distinct.
