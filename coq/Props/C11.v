(* C11 — Saving a model to .ode and loading it back preserves the model. *)
From GX Require Import Base Ode Codegen Load Save Perm LoadPerm SaveLoad Parse ParseItems Lex Line.
From Coq Require Import Permutation.
Open Scope string_scope.
Open Scope list_scope.

(* For the mirror of the writer and the loader: saving any loaded model and loading the result gives a
   model with the same states, parameters, intermediates and derivatives (values, units, descriptions,
   component tuples included - they are fields of the atoms), hence the same slot layout and the same
   generated rhs / monitor_values / Euler functions; in whatever order the writer lists the atoms.  What the
   theorem does not cover is the text level (sympy's printer and Lark's parser between items and file), which
   the check compares by execution on every model. *)
Theorem C11_saving_and_loading_a_model_preserves_it :
  forall items o S P A,
    load items = Ok o ->
    same_set S (o_states o) -> same_set P (o_params o) -> same_set A (assigns o) ->
    exists o', load (save_items S P A) = Ok o' /\ ode_equiv o o'.
Proof. exact save_then_load_gen. Qed.
Print Assumptions C11_saving_and_loading_a_model_preserves_it.

Theorem C11_the_reloaded_model_has_the_same_layout_and_code :
  forall items o,
    load items = Ok o ->
    exists o', load (save_items (o_states o) (o_params o) (assigns o)) = Ok o'
      /\ ode_equiv o o'
      /\ (forall ru, sorted_names o ru = sorted_names o' ru)
      /\ sorted_states o = sorted_states o'
      /\ param_names o = param_names o'
      /\ (forall ru order, gen_rhs o ru order = gen_rhs o' ru order)
      /\ (forall ru order, gen_monitor o ru order = gen_monitor o' ru order)
      /\ (forall ru name order, gen_euler o ru name order = gen_euler o' ru name order).
Proof. exact save_then_load_same_code. Qed.
Print Assumptions C11_the_reloaded_model_has_the_same_layout_and_code.

(* The writer groups the atoms by component tuple, one block per group: the blocks together contain
   exactly the atoms of the model (nothing lost, nothing invented) ... *)
Theorem C11_blocks_contain_exactly_the_atoms :
  forall (A : Type) (key : A -> list string) (l : list A), Permutation (flat_map snd (group_by key l)) l.
Proof. exact @group_by_perm. Qed.
Print Assumptions C11_blocks_contain_exactly_the_atoms.

(* ... each atom in the block headed by its own components (membership is preserved) ... *)
Theorem C11_every_atom_is_written_under_its_own_components :
  forall (A : Type) (key : A -> list string) (l : list A) k g a,
    In (k, g) (group_by key l) -> In a g -> key a = k.
Proof. exact @group_by_keyed. Qed.
Print Assumptions C11_every_atom_is_written_under_its_own_components.

(* ... and the expression blocks are ordered so that no header-less block follows a headed one
   (it would be read as part of it) *)
Theorem C11_no_unnamed_block_after_a_named_one :
  forall (A : Type) (g : list (list string * list A)) l1 x l2,
    unnamed_first g = l1 ++ x :: l2 -> is_unnamed (fst x) = true ->
    forall y, In y l1 -> is_unnamed (fst y) = true.
Proof. exact @unnamed_never_after_named. Qed.
Print Assumptions C11_no_unnamed_block_after_a_named_one.

Theorem C11_reordering_the_groups_loses_nothing :
  forall (A : Type) (g : list (list string * list A)), Permutation (unnamed_first g) g.
Proof. exact @unnamed_first_perm. Qed.
Print Assumptions C11_reordering_the_groups_loses_nothing.

(* a reloaded model that presents the same definitions, annotations included, in any order has the
   same statement order and slot layout (assignment names being distinct), hence C01-C07 and C12 transfer to it *)
Theorem C11_same_definitions_same_layout :
  forall o o', ode_equiv o o' -> unique_assign_names o ->
    (forall ru, sorted_names o ru = sorted_names o' ru) /\ sorted_states o = sorted_states o'
    /\ param_names o = param_names o'.
Proof.
  intros o o' E U. split; [|split].
  - exact (sorted_names_inv o o' E U).
  - exact (sorted_states_inv o o' E U).
  - exact (param_names_inv o o' E).
Qed.
Print Assumptions C11_same_definitions_same_layout.
(* Partial: that the expression printer (sympy's StrPrinter with gotranx's overrides) is read back with
   the same meaning is checked by execution on every run (numeric comparison of the reloaded
   implementation model). *)

(* the text level of a right-hand side: the expression grammar of ode.lark, as a parser over tokens that is compared
   with Lark on every expression of every generated, saved and decorated text.  Every expression of the language
   (variables that are not keywords; no "not equal", which the language lacks) can be written so that it is read back as
   exactly that expression - also in front of anything that ends an expression (a comma, a closing parenthesis), so inside
   argument lists and parentheses, given fuel of six times its length - and two expressions written the same way are equal *)
Theorem C11_every_expression_has_a_text_that_is_read_back_as_itself :
  forall e, writable e -> parse_expr (print_expr e) = Some e.
Proof. exact parse_print. Qed.
Print Assumptions C11_every_expression_has_a_text_that_is_read_back_as_itself.

Theorem C11_written_expressions_are_read_back_in_any_context :
  forall e, writable e ->
    forall m, (6 * List.length (print_expr e) <= m)%nat ->
    forall rest, stop rest -> p_expr (P m) (print_expr e ++ rest) = Some (e, rest).
Proof. exact print_then_parse. Qed.
Print Assumptions C11_written_expressions_are_read_back_in_any_context.

Theorem C11_the_written_form_determines_the_expression :
  forall a b, writable a -> writable b -> print_expr a = print_expr b -> a = b.
Proof. exact print_expr_injective. Qed.
Print Assumptions C11_the_written_form_determines_the_expression.

(* one level closer to the file: the saved model written out as token text (every right-hand side and declared value a
   token sequence) and read by the verified parser loads to an equivalent model - for every loaded model whose saved items
   are writable, i.e. no expression of which reads a keyword of the expression grammar as a variable or holds a "not equal" *)
Theorem C11_the_token_text_of_the_saved_model_loads_to_an_equivalent_model :
  forall items o,
    load items = Ok o ->
    (forall i, In i (save_items (o_states o) (o_params o) (assigns o)) -> writable_item i) ->
    exists o', load_tokens (print_items (save_items (o_states o) (o_params o) (assigns o))) = Some (Ok o') /\ ode_equiv o o'.
Proof. exact save_print_load. Qed.
Print Assumptions C11_the_token_text_of_the_saved_model_loads_to_an_equivalent_model.

Theorem C11_reading_the_token_text_of_an_item_list_gives_the_item_list :
  forall items, (forall i, In i items -> writable_item i) -> parse_items (print_items items) = Some items.
Proof. exact parse_print_items. Qed.
Print Assumptions C11_reading_the_token_text_of_an_item_list_gives_the_item_list.

(* down to the characters: the lexer (Lex.lex: NUMBER, VARIABLE and operator terminals of ode.lark, white space ignored,
   longest match) reads every rendered sequence of source tokens back, and characters -> tokens -> expression inverts
   printing followed by rendering - for every writable expression and every spelling of its tokens that Lex.stok has (numbers as integer
   literals or <m>e-<k>) *)
Theorem C11_the_lexer_reads_back_every_rendered_token_sequence :
  forall l, Forall (fun t => good t = true) l -> lex (render l) = Some (map tok_of l).
Proof. exact lex_render. Qed.
Print Assumptions C11_the_lexer_reads_back_every_rendered_token_sequence.

Theorem C11_the_characters_of_a_written_expression_are_read_back_as_the_expression :
  forall e l, writable e -> Forall (fun t => good t = true) l -> map tok_of l = print_expr e ->
    parse_string (render l) = Some e.
Proof. exact parse_rendered. Qed.
Print Assumptions C11_the_characters_of_a_written_expression_are_read_back_as_the_expression.

(* the printer as it is run (Lex.render_expr: printed tokens spelled as characters - integer literals, <m>e-<k> for the
   other numbers): whenever it writes a text for a writable expression, lexing and parsing that text gives the expression;
   the harness puts these texts in the place of the right-hand sides of every model and has Lark read them *)
Theorem C11_the_text_the_printer_writes_is_read_back_as_the_expression :
  forall e s, writable e -> render_expr e = Some s -> parse_string s = Some e.
Proof. exact render_expr_parse. Qed.
Print Assumptions C11_the_text_the_printer_writes_is_read_back_as_the_expression.

Theorem C11_the_text_written_for_a_token_sequence_is_lexed_back_to_it :
  forall ts s, render_tokens ts = Some s -> lex s = Some ts.
Proof. exact render_tokens_lex. Qed.
Print Assumptions C11_the_text_written_for_a_token_sequence_is_lexed_back_to_it.

(* one assignment line: what Line.write_line writes for a name (an identifier that is no keyword), a writable expression
   and any comment is read back (cut at "#", cut at "=", lexer, parser) as exactly that triple *)
Theorem C11_a_written_assignment_line_is_read_back :
  forall x e cm s, good_id x = true -> is_keyword x = false -> writable e ->
    write_line x e cm = Some s -> parse_line s = Some (x, e, cm).
Proof. exact parse_written_line. Qed.
Print Assumptions C11_a_written_assignment_line_is_read_back.
