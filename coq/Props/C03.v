(* C03 — Generated JAX code computes the same values, with full-size outputs. *)
From GX Require Import Base Expr Ode Target Sem Valid Jax.
From Coq Require Import QArith.
Close Scope Q_scope.
Open Scope string_scope.
Open Scope list_scope.

(* The jax backend prints  values[i] = e  as  _values_i = e  and returns the first n of these names.
   For a validated function (every declared slot written exactly once) the jax function returns
   an array of the declared length, equal to what the numpy function returns; hence every theorem
   about validated numpy functions (C01, C04, C05, C06, C07, C12) transfers to jax.  Assumed, as there:
   input arrays as long as their tables, no assignment named as a scalar argument.  exec_jax (Jax.v) differs
   from exec only in failing on an unassigned slot: a model name that meets a _values_i is C19's matter. *)
Theorem C03_validated_function_has_full_size_output_equal_to_numpy :
  forall (T : Type) (N : NumOps T) (o : ode) ss (inp : inputs T) wd f ok,
    sizes_ok o ss inp -> reserved_free o inp wd = true ->
    valid_fun o ss inp wd f ok = true ->
    exists out, exec_jax N f wd inp = Some out /\ exec N f wd inp = Some out /\ length out = f_nret f.
Proof. exact @jax_equals_numpy. Qed.
Print Assumptions C03_validated_function_has_full_size_output_equal_to_numpy.

(* whenever the jax function returns, it returns what numpy returns *)
Theorem C03_jax_result_is_the_numpy_result :
  forall (T : Type) (N : NumOps T) f wd (inp : inputs T) out,
    exec_jax N f wd inp = Some out -> exec N f wd inp = Some out.
Proof. exact @exec_jax_le. Qed.
Print Assumptions C03_jax_result_is_the_numpy_result.

(* a declared slot that is never assigned is a NameError under jax.  (The unrepaired generator declared as many
   slots as there are states for monitor_values / missing_values: with fewer values than states they failed this
   way, with more they returned a truncated array; repaired in /repo ab254a5.) *)
Example C03_unassigned_slot_is_an_error :
  exec_jax (T := nat) {| ofQ := fun _ => 0; cpi := 0; add := Nat.add; sub := Nat.sub; mul := Nat.mul; div := Nat.div;
              pow := Nat.pow; neg := fun x => x; fn := fun _ x => x; fmod := Nat.modulo;
              rel := fun _ _ _ => 0; bnot := fun x => x; band := Nat.mul; bor := Nat.add;
              select := fun c a b => if Nat.eqb c 0 then b else a |}
           {| f_name := "monitor_values"; f_args := []; f_nret := 2;
              f_body := [SStore 0 (ENum 1%Q true)] |} false
           {| in_t := 0; in_dt := 0; in_states := []; in_params := []; in_missing := [] |} = None.
Proof. reflexivity. Qed.
