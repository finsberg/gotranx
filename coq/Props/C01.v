(* C01 — Generated NumPy rhs computes exactly the derivatives the model text defines.
   Theorems only: each proof is [exact <lemma of the development>] or a computation on an example. *)
From GX Require Import Base Expr Ode OrderSound Target Sem Codegen Load Valid MirrorValid LoadWf Run Examples Singular Lex.
From Coq Require Import ZArith.
Open Scope string_scope.
Open Scope list_scope.

(* A function (the statement skeleton of Target.v, which the harness reads off the generated code) accepted by
   the validator runs to completion (no NameError / IndexError), and slot state_index(X) of the returned array
   (the position of X in ss) holds the documented meaning of dX_dt: the value of its expression with every
   intermediate standing for its defining expression.  For every numeric carrier (reals, float64, ...), every
   model, every dependency shape and every order of independent statements.  Assumed: input arrays as long as
   their tables (sizes_ok); no assignment called t or time - or dt, in a function that takes dt (reserved_free). *)
Theorem C01_validated_rhs_computes_the_defined_derivatives :
  forall (T : Type) (N : NumOps T) (o : ode) (ss : list string) (inp : inputs T) (with_dt : bool)
         (f : func),
    sizes_ok o ss inp -> reserved_free o inp with_dt = true ->
    valid_rhs o ss inp with_dt f = true ->
    exists out,
      exec N f with_dt inp = Some out
      /\ length out = length ss
      /\ forall i s, nth_error ss i = Some s ->
           exists v, nth_error out i = Some v /\ Sem N o ss inp with_dt (deriv_name_of s) v.
Proof. exact @rhs_sound. Qed.
Print Assumptions C01_validated_rhs_computes_the_defined_derivatives.

(* the documented meaning is a function of the name.  (Sem is stated over the model's definitions alone: no
   statement order, component grouping or use of a definition enters it.) *)
Theorem C01_meaning_is_unique :
  forall (T : Type) (N : NumOps T) (o : ode) ss (inp : inputs T) with_dt x v v',
    Sem N o ss inp with_dt x v -> Sem N o ss inp with_dt x v' -> v = v'.
Proof. intros T N o ss inp with_dt x v v' H H'. exact (Sem_fun N o ss inp with_dt x v H v' H'). Qed.
Print Assumptions C01_meaning_is_unique.

(* whatever the order-free reference evaluator the correspondence check runs (extracted, over float64)
   returns is that meaning; it returns nothing when its fuel runs out or a name has no meaning *)
Theorem C01_reference_evaluator_sound :
  forall (T : Type) (N : NumOps T) (o : ode) ss (inp : inputs T) with_dt fuel x v,
    sem_eval N o ss inp with_dt fuel x = Some v -> Sem N o ss inp with_dt x v.
Proof. exact @sem_eval_sound. Qed.
Print Assumptions C01_reference_evaluator_sound.

(* a value depends only on the variables that occur in the expression *)
Theorem C01_eval_depends_on_occurring_variables_only :
  forall (T : Type) (N : NumOps T) rho rho' e,
    (forall x, In x (vars e) -> rho x = rho' x) -> eval N rho e = eval N rho' e.
Proof. exact @eval_ext. Qed.
Print Assumptions C01_eval_depends_on_occurring_variables_only.

(* the statement order: whenever ODE.sorted_assignments (graphlib's static_order on the dependency
   graph, mirrored instruction by instruction in Topo.v) returns an order, that order lists no name twice, only
   assignments, all of them (with remove_unused: all derivatives and all used intermediates), and every assignment
   after all the assignments it reads - for every model, every dependency shape, with and without remove_unused *)
Theorem C01_statement_order_defines_before_use :
  forall o ru ord,
    sorted_names o ru = Some ord ->
    NoDup ord
    /\ (forall n, In n ord -> In n (all_assign_names o))
    /\ (forall n, In n (all_assign_names o) ->
          ru = false \/ is_inter_name o n = false \/ used o n = true -> In n ord)
    /\ (forall pre n post, ord = pre ++ n :: post ->
          forall d, In d (deps_of o n) -> In d (all_assign_names o) -> In d pre).
Proof. exact sorted_names_sound. Qed.
Print Assumptions C01_statement_order_defines_before_use.

(* the mirror of the generator is a verified compiler: for every well-formed model (wf_gen, a boolean
   the harness evaluates on the mirror of every model the implementation generated code for) that has
   a statement order (sorted_states: no cycle), both settings of remove_unused and every argument order,
   the rhs it generates passes the validator, runs to completion on input arrays as long as their tables
   and returns the documented meaning of every derivative in its state's slot.  The implementation's
   code is compared with this function statement by statement on every case. *)
Theorem C01_mirror_rhs_is_correct_for_every_well_formed_model :
  forall (T : Type) (N : NumOps T) (o : ode) ru order ss f (inp : inputs T),
    sorted_states o = Some ss -> wf_gen o ss false = true ->
    gen_rhs o ru order = Some f ->
    sizes_ok o ss inp ->
    valid_rhs o ss inp false f = true
    /\ exists out,
        exec N f false inp = Some out
        /\ length out = length ss
        /\ forall i s, nth_error ss i = Some s ->
             exists v, nth_error out i = Some v /\ Sem N o ss inp false (deriv_name_of s) v.
Proof. exact @mirror_rhs_correct. Qed.
Print Assumptions C01_mirror_rhs_is_correct_for_every_well_formed_model.

(* the same for monitor_values: slot i holds the meaning of the i-th name of ODE.sorted_assignments() *)
Theorem C01_mirror_monitor_is_correct_for_every_well_formed_model :
  forall (T : Type) (N : NumOps T) (o : ode) ru order ss ord f (inp : inputs T),
    sorted_states o = Some ss -> sorted_names o false = Some ord -> wf_gen o ss false = true ->
    gen_monitor o ru order = Some f ->
    sizes_ok o ss inp ->
    valid_named o ss inp false ord f = true
    /\ exists out,
        exec N f false inp = Some out
        /\ length out = length ord
        /\ forall i n, nth_error ord i = Some n ->
             exists v, nth_error out i = Some v /\ Sem N o ss inp false n v.
Proof. exact @mirror_monitor_correct. Qed.
Print Assumptions C01_mirror_monitor_is_correct_for_every_well_formed_model.

(* text to code, end to end for the model: every item list the loader mirror accepts, none of whose names is
   one the generated function uses for itself (t, time), and that has a statement order (sorted_states: no cycle),
   compiles - with and without remove_unused - to an rhs that runs and returns the documented meaning of every
   derivative in its state's slot *)
Theorem C01_accepted_text_compiles_to_a_correct_rhs :
  forall (T : Type) (N : NumOps T) items o ru order ss f (inp : inputs T),
    load items = Ok o ->
    (forall x, In x (all_names o) -> resv false x = false) ->
    sorted_states o = Some ss ->
    gen_rhs o ru order = Some f ->
    sizes_ok o ss inp ->
    exists out,
      exec N f false inp = Some out
      /\ length out = length ss
      /\ forall i s, nth_error ss i = Some s ->
           exists v, nth_error out i = Some v /\ Sem N o ss inp false (deriv_name_of s) v.
Proof. exact @accepted_text_compiles_to_a_correct_rhs. Qed.
Print Assumptions C01_accepted_text_compiles_to_a_correct_rhs.

(* non-vacuity: the mirror's rhs for the example model (two components, unused intermediate,
   conditional, chain) is accepted, with and without removal of unused variables *)
Example C01_example_is_accepted :
  valid_rhs ex_ode ex_ss ex_inp false (ex_rhs false) = true
  /\ valid_rhs ex_ode ex_ss ex_inp false (ex_rhs true) = true
  /\ reserved_free ex_ode ex_inp false = true
  /\ wf_gen ex_ode ex_ss false = true.
Proof.
  split; [exact (proj1 ex_rhs_valid)|]. split; [exact (proj2 ex_rhs_valid)|].
  vm_compute. split; reflexivity.
Qed.

(* a right-hand side that is a relation is generated (since the repairs 3a918ce / 202f462) as the conditional
   Conditional(relation, 1, 0): the same value, in every carrier in which relations give 1 or 0 and selection picks accordingly
   (the reals are one: RealsC.ROps_sel) *)
Theorem C01_a_relation_and_its_indicator_conditional_have_the_same_value :
  forall (T : Type) (N : NumOps T), SelLaws N ->
    forall rho r a b, eval N rho (ECond (ERel r a b) e_one e_zero) = eval N rho (ERel r a b).
Proof. exact @indicator_conditional_is_the_relation. Qed.
Print Assumptions C01_a_relation_and_its_indicator_conditional_have_the_same_value.

(* integer, decimal and scientific literals: the value the lexer gives the number token with mantissa digits m, fl of them
   behind the point, and exponent ex is (Qeq) the rational m * 10^(ex - fl); lit_value reduces it to lowest terms, the form
   the harness obtains from Python's Fraction of the literal's text *)
Theorem C01_a_literal_has_its_decimal_value :
  forall m fl ex,
    QArith_base.Qeq (lit_value m fl ex)
      (QArith_base.Qmult (QArith_base.inject_Z (Z.of_N m)) (QArith_base.Qpower (QArith_base.inject_Z 10) (Z.sub ex (Z.of_N fl)))).
Proof. exact lit_value_spec. Qed.
Print Assumptions C01_a_literal_has_its_decimal_value.

(* precedence and associativity from the characters on (computed examples of Lex.lex followed by Parse.parse_expr) *)
Theorem C01_precedence_from_characters :
  parse_string "a - b - c ** 2 ** k" =
    Some (ESub (ESub (EVar "a") (EVar "b")) (EPow (EVar "c") (EPow (ENum (QArith_base.Qmake 2 1) true) (EVar "k"))))
  /\ parse_string "-x**2 + 3*y/z*w" =
    Some (EAdd (ENeg (EPow (EVar "x") (ENum (QArith_base.Qmake 2 1) true))) (EMul (EDiv (EMul (ENum (QArith_base.Qmake 3 1) true) (EVar "y")) (EVar "z")) (EVar "w")))
  /\ parse_string "2**-x" = Some (EPow (ENum (QArith_base.Qmake 2 1) true) (ENeg (EVar "x")))
  /\ parse_string "1.5e-3*x" = Some (EMul (ENum (QArith_base.Qmake 3 2000) false) (EVar "x"))
  /\ parse_string "1e2e3" = None.
Proof. vm_compute. repeat split; reflexivity. Qed.
Print Assumptions C01_precedence_from_characters.
