(* Sem.v — the documented meaning of a model ("every intermediate stands for its defining
   expression") as an order-independent relation, a boolean validator for function bodies, and
   the central soundness theorem ([run_sound], [exec_sound]): a body that passes the validator runs
   without a NameError / IndexError, binds every name to its meaning, and every value it stores is the
   meaning of the stored expression.  Generic in the numeric carrier, hence valid for reals and float64
   alike. *)
From GX Require Import Base Expr Ode Target.
Open Scope string_scope.
Open Scope list_scope.

Section Sem.
  Context {T : Type} (N : NumOps T) (o : ode).
  Variable ss : list string.        (* the state slot order (ODE.sorted_states) *)
  Variable inp : inputs T.
  Variable with_dt : bool.

  Definition reserved : list string := keys (env0 inp with_dt).

  (* value of a name that is not defined by an assignment *)
  Definition base (x : string) : option T :=
    match lookup x (env0 inp with_dt) with
    | Some v => Some v
    | None =>
      match index_of x ss with
      | Some i => nth_error (in_states inp) i
      | None =>
        match index_of x (param_names o) with
        | Some i => nth_error (in_params inp) i
        | None =>
          match index_of x (missing_names o) with
          | Some i => nth_error (in_missing inp) i
          | None => None
          end
        end
      end
    end.

  Inductive Sem : string -> T -> Prop :=
  | SemBase x v : find_assign o x = None -> base x = Some v -> Sem x v
  | SemDef x a rho :
      find_assign o x = Some a ->
      (forall y, In y (vars (a_expr a)) -> Sem y (rho y)) ->
      Sem x (eval N rho (a_expr a)).

  Lemma Sem_fun x v : Sem x v -> forall v', Sem x v' -> v = v'.
  Proof.
    induction 1 as [x v Hf Hb | x a rho Hf Hdeps IH]; intros v' H';
      inversion H' as [x' v'' Hf' Hb' | x' a' rho' Hf' Hdeps']; subst; try congruence.
    assert (a' = a) by congruence. subst a'.
    apply eval_ext. intros y Hy. apply (IH y Hy). apply Hdeps'. exact Hy.
  Qed.

  Definition SemE (e : expr) (v : T) : Prop :=
    exists rho, (forall y, In y (vars e) -> Sem y (rho y)) /\ v = eval N rho e.

  Lemma SemE_fun e v v' : SemE e v -> SemE e v' -> v = v'.
  Proof.
    intros (r & Hr & ->) (r' & Hr' & ->). apply eval_ext.
    intros y Hy. eapply Sem_fun; eauto.
  Qed.

  Lemma SemE_known e v (kn : list (string * T)) :
    SemE e v -> (forall x w, In (x, w) kn -> Sem x w) ->
    exists rho, (forall y, In y (vars e) -> Sem y (rho y))
                /\ (forall x w, In (x, w) kn -> rho x = w) /\ v = eval N rho e.
  Proof.
    intros (rho & Hrho & ->) Hk.
    assert (Hl : forall y w, lookup y kn = Some w -> Sem y w) by (intros y w H; apply Hk, lookup_Some_In, H).
    exists (fun y => match lookup y kn with Some w => w | None => rho y end). split; [|split].
    - intros y Hy. destruct (lookup y kn) eqn:E; [exact (Hl y _ E)|exact (Hrho y Hy)].
    - intros x w Hin. destruct (lookup x kn) eqn:E; [exact (Sem_fun _ _ (Hl x _ E) _ (Hk x w Hin))|].
      apply lookup_None_keys in E. destruct E. exact (in_map fst _ _ Hin).
    - apply eval_ext. intros y Hy. destruct (lookup y kn) eqn:E; [|reflexivity].
      exact (Sem_fun _ _ (Hrho y Hy) _ (Hl y _ E)).
  Qed.

  Lemma SemE_var x v : SemE (EVar x) v <-> Sem x v.
  Proof.
    split.
    - intros (r & Hr & ->). apply Hr. simpl; auto.
    - intros H. exists (fun _ => v). split; [|reflexivity]. intros y [<-|[]]. exact H.
  Qed.

  Definition is_assign (x : string) : bool :=
    match find_assign o x with Some _ => true | None => false end.

  Definition opt_nat_eqb (a : option nat) (i : nat) : bool :=
    match a with Some j => Nat.eqb j i | None => false end.

  Definition ok_stmt (nret : nat) (defined : list string) (s : stmt) : bool :=
    match s with
    | SUnpackS x i =>
        negb (mem x defined) && negb (mem x reserved) && negb (is_assign x)
        && opt_nat_eqb (index_of x ss) i
    | SUnpackP x i =>
        negb (mem x defined) && negb (mem x reserved) && negb (is_assign x)
        && negb (mem x ss) && opt_nat_eqb (index_of x (param_names o)) i
    | SUnpackM x i =>
        negb (mem x defined) && negb (mem x reserved) && negb (is_assign x)
        && negb (mem x ss) && negb (mem x (param_names o))
        && opt_nat_eqb (index_of x (missing_names o)) i
    | SLet x e =>
        negb (mem x defined)
        && match find_assign o x with Some a => expr_eqb (a_expr a) e | None => false end
        && forallb (fun y => mem y defined) (vars e)
    | SStore i e => forallb (fun y => mem y defined) (vars e) && Nat.ltb i nret
    end.

  Definition binds (s : stmt) : list string :=
    match s with
    | SUnpackS x _ | SUnpackP x _ | SUnpackM x _ | SLet x _ => [x]
    | SStore _ _ => []
    end.

  Fixpoint valid_body (nret : nat) (defined : list string) (body : list stmt) : bool :=
    match body with
    | [] => true
    | s :: body' => ok_stmt nret defined s && valid_body nret (binds s ++ defined) body'
    end.

  Definition sizes_ok : Prop :=
    length (in_states inp) = length ss /\
    length (in_params inp) = length (param_names o) /\
    length (in_missing inp) = length (missing_names o).

  Definition reserved_free : bool := forallb (fun r => negb (is_assign r)) reserved.

  Definition Agree (rho : env T) : Prop := forall x v, lookup x rho = Some v -> Sem x v.

  Lemma not_assign x : negb (is_assign x) = true -> find_assign o x = None.
  Proof. unfold is_assign. destruct (find_assign o x); [discriminate|reflexivity]. Qed.

  Lemma Agree_env0 : reserved_free = true -> Agree (env0 inp with_dt).
  Proof.
    intros Hr x v Hl. apply SemBase.
    - unfold reserved_free in Hr. rewrite forallb_forall in Hr.
      apply not_assign, Hr. exact (lookup_keys _ _ _ Hl).
    - unfold base. rewrite Hl. reflexivity.
  Qed.

  Lemma bound_of_defined (rho : env T) e :
    forallb (fun y => mem y (keys rho)) (vars e) = true -> bound rho e = true.
  Proof.
    intros H. apply forallb_forall. intros y Hy.
    apply (proj1 (forallb_forall _ _) H), mem_In, in_keys_lookup in Hy. destruct Hy as [v ->]. reflexivity.
  Qed.

  Lemma SemE_of_env (rho : env T) e :
    Agree rho -> bound rho e = true -> SemE e (eval N (env_fun N rho) e).
  Proof.
    intros HA Hb. exists (env_fun N rho). split; [|reflexivity].
    intros y Hy. unfold bound in Hb. rewrite forallb_forall in Hb. specialize (Hb y Hy).
    unfold env_fun. destruct (lookup y rho) eqn:E; [|discriminate]. apply HA. exact E.
  Qed.

  Lemma idx_some (a : option nat) i : opt_nat_eqb a i = true -> a = Some i.
  Proof. destruct a; simpl; [|discriminate]. intros H. apply Nat.eqb_eq in H. congruence. Qed.

  Lemma not_reserved_lookup x :
    negb (mem x reserved) = true -> lookup x (env0 inp with_dt) = None.
  Proof.
    intros H. apply negb_true_iff, mem_false_In in H. apply lookup_None_keys. exact H.
  Qed.

  Lemma index_of_mem_false x l : negb (mem x l) = true -> index_of x l = None.
  Proof. intros H. apply negb_true_iff, mem_false_In in H. apply index_of_None. exact H. Qed.

  Lemma Agree_cons x v rho : Sem x v -> Agree rho -> Agree ((x, v) :: rho).
  Proof.
    intros Hx HA y w. simpl. destruct (String.eqb_spec y x) as [->|_]; [intros [= <-]; exact Hx|apply HA].
  Qed.

  Lemma lookup_cons_fresh (rho : env T) x v y w :
    ~ In x (keys rho) -> lookup y rho = Some w -> lookup y ((x, v) :: rho) = Some w.
  Proof.
    intros Hx Hl. simpl. destruct (String.eqb_spec y x) as [->|_]; [|exact Hl].
    destruct Hx. exact (lookup_keys _ _ _ Hl).
  Qed.

  Lemma ok_stmt_fresh nret d s x : ok_stmt nret d s = true -> In x (binds s) -> ~ In x d.
  Proof.
    intros H Hx. apply mem_false_In, negb_true_iff.
    destruct s; cbn [binds In] in Hx; try contradiction; destruct Hx as [<-|[]]; cbn [ok_stmt] in H;
      repeat (apply andb_prop, proj1 in H); exact H.
  Qed.

  (* the three unpacking statements at once: the last hypothesis is where the caller shows that [base] looks
     the name up in this array *)
  Lemma unpack_sound (tbl : list string) (arr : list T) x i :
    length arr = length tbl -> opt_nat_eqb (index_of x tbl) i = true -> negb (is_assign x) = true ->
    (index_of x tbl = Some i -> base x = nth_error arr i) ->
    exists v, nth_error arr i = Some v /\ Sem x v.
  Proof.
    intros Hl Hi Ha Hb. apply idx_some in Hi.
    destruct (nth_error_some_lt arr i) as [v Hv]; [rewrite Hl; exact (index_of_lt _ _ _ Hi)|].
    exists v. split; [exact Hv|]. apply SemBase; [exact (not_assign _ Ha)|]. rewrite (Hb Hi). exact Hv.
  Qed.

  Lemma step_bind_sound nret (rho : list (string * T)) vals s x :
    sizes_ok -> Agree rho -> ok_stmt nret (keys rho) s = true -> binds s = [x] ->
    exists v, step N nret inp (rho, vals) s = Some ((x, v) :: rho, vals) /\ Sem x v.
  Proof.
    intros (Hs & Hp & Hm) HA Hok Hx.
    destruct s as [y i|y i|y i|y e|i e]; cbn [binds] in Hx; try discriminate; injection Hx as ->;
      cbn [ok_stmt] in Hok; cbn [step].
    - apply andb_prop in Hok as [[[_ Hres]%andb_prop Hasg]%andb_prop Hidx].
      destruct (unpack_sound _ _ x i Hs Hidx Hasg) as (v & -> & Hv); [|eauto].
      intros Hi. unfold base. rewrite (not_reserved_lookup _ Hres), Hi. reflexivity.
    - apply andb_prop in Hok as [[[[_ Hres]%andb_prop Hasg]%andb_prop Hst]%andb_prop Hidx].
      destruct (unpack_sound _ _ x i Hp Hidx Hasg) as (v & -> & Hv); [|eauto].
      intros Hi. unfold base. rewrite (not_reserved_lookup _ Hres), (index_of_mem_false _ _ Hst), Hi. reflexivity.
    - apply andb_prop in Hok as [[[[[_ Hres]%andb_prop Hasg]%andb_prop Hst]%andb_prop Hpar]%andb_prop Hidx].
      destruct (unpack_sound _ _ x i Hm Hidx Hasg) as (v & -> & Hv); [|eauto].
      intros Hi. unfold base.
      rewrite (not_reserved_lookup _ Hres), (index_of_mem_false _ _ Hst), (index_of_mem_false _ _ Hpar), Hi. reflexivity.
    - apply andb_prop in Hok as [[_ Hdef]%andb_prop Hbound].
      destruct (find_assign o x) as [a|] eqn:Hfa; [|discriminate].
      apply expr_eqb_eq in Hdef. subst e. pose proof (bound_of_defined _ _ Hbound) as Hb. rewrite Hb.
      eexists. split; [reflexivity|]. destruct (SemE_of_env _ _ HA Hb) as (r & Hr & ->).
      exact (SemDef _ _ _ Hfa Hr).
  Qed.

  Lemma binds_cases s : (exists i e, s = SStore i e) \/ exists x, binds s = [x].
  Proof. destruct s; simpl; eauto. Qed.

  Lemma step_store_sound nret (rho : list (string * T)) vals i e :
    Agree rho -> ok_stmt nret (keys rho) (SStore i e) = true ->
    step N nret inp (rho, vals) (SStore i e) = Some (rho, (i, eval N (env_fun N rho) e) :: vals)
    /\ SemE e (eval N (env_fun N rho) e).
  Proof.
    simpl. intros HA Hok. apply andb_prop in Hok. destruct Hok as [Hd Hlt].
    pose proof (bound_of_defined _ _ Hd) as Hb. rewrite Hb, Hlt. split; [reflexivity|].
    exact (SemE_of_env _ _ HA Hb).
  Qed.

  Theorem run_sound nret body :
    sizes_ok ->
    forall rho vals,
      valid_body nret (keys rho) body = true ->
      Agree rho ->
      exists rho' vals',
        run N nret inp (rho, vals) body = Some (rho', vals')
        /\ Agree rho'
        /\ (forall x v, lookup x rho = Some v -> lookup x rho' = Some v)
        /\ (forall i v, In (i, v) vals' ->
              In (i, v) vals \/ exists e, In (SStore i e) body /\ SemE e v)
        /\ (forall i v, In (i, v) vals -> In (i, v) vals')
        /\ (forall i e, In (SStore i e) body -> exists v, In (i, v) vals' /\ SemE e v)
        /\ (forall x e, In (SLet x e) body -> exists v, lookup x rho' = Some v).
  Proof.
    intros Hsz.
    induction body as [|s body IH]; intros rho vals Hv HA.
    - exists rho, vals. split; [reflexivity|]. split; [exact HA|]. split; [auto|]. split; [auto|]. split; [auto|].
      split; intros ? ? [].
    - apply andb_prop in Hv. destruct Hv as [Hok Hrest]. cbn [run].
      destruct (binds_cases s) as [(i & e & ->)|(x & Hx)]; simpl in Hrest; [|rewrite Hx in Hrest].
      + (* a store: the environment stays, the array gains one pair *)
        destruct (step_store_sound nret rho vals i e HA Hok) as [-> Hse].
        destruct (IH rho ((i, eval N (env_fun N rho) e) :: vals) Hrest HA)
          as (rho' & vals' & Hrun & HP).
        exists rho', vals'. split; [exact Hrun|]. destruct HP as (HA' & Hpres & Hfrom & Hkeep & Hall & Hlets).
        split; [exact HA'|]. split; [exact Hpres|]. split; [|split; [|split]].
        * intros j v Hin. destruct (Hfrom j v Hin) as [[[= <- <-]|Hin1]|(e' & He' & Hse')].
          -- right. exists e. split; [left; reflexivity|exact Hse].
          -- left. exact Hin1.
          -- right. exists e'. split; [right; exact He'|exact Hse'].
        * intros j v Hin. apply Hkeep. right. exact Hin.
        * intros j e' [[= <- <-]|Hin]; [|exact (Hall j e' Hin)]. eexists. split; [apply Hkeep; left; reflexivity|exact Hse].
        * intros y e' [[=]|Hin]. exact (Hlets y e' Hin).
      + (* a binding: the array stays, the environment gains one fresh name with its meaning *)
        destruct (step_bind_sound nret rho vals s x Hsz HA Hok Hx) as (v & -> & Hsem).
        assert (Hfresh : ~ In x (keys rho)) by (apply (ok_stmt_fresh _ _ _ x Hok); rewrite Hx; left; reflexivity).
        destruct (IH ((x, v) :: rho) vals Hrest (Agree_cons _ _ _ Hsem HA))
          as (rho' & vals' & Hrun & HP).
        exists rho', vals'. split; [exact Hrun|]. destruct HP as (HA' & Hpres & Hfrom & Hkeep & Hall & Hlets).
        split; [exact HA'|]. split; [|split; [|split; [exact Hkeep|split]]].
        * intros y w Hl. apply Hpres, lookup_cons_fresh; assumption.
        * intros j w Hin. destruct (Hfrom j w Hin) as [Hin1|(e' & He' & Hse')]; [left; exact Hin1|].
          right. exists e'. split; [right; exact He'|exact Hse'].
        * intros j e' [->|Hin]; [discriminate|exact (Hall j e' Hin)].
        * intros y e' [->|Hin]; [|exact (Hlets y e' Hin)]. injection Hx as ->.
          eexists. apply Hpres. simpl. rewrite String.eqb_refl. reflexivity.
  Qed.

  Theorem exec_sound (f : func) :
    sizes_ok -> reserved_free = true ->
    valid_body (f_nret f) reserved (f_body f) = true ->
    exists out,
      exec N f with_dt inp = Some out
      /\ length out = f_nret f
      /\ forall i, i < f_nret f ->
           (exists e v, In (SStore i e) (f_body f) /\ SemE e v /\ nth_error out i = Some v)
           \/ ((forall e, ~ In (SStore i e) (f_body f)) /\ nth_error out i = Some (tzero N)).
  Proof.
    intros Hsz Hrf Hv.
    destruct (run_sound (f_nret f) (f_body f) Hsz (env0 inp with_dt) [] Hv (Agree_env0 Hrf))
      as (rho' & vals' & Hrun & _ & _ & Hfrom & _ & Hall & _).
    exists (result N (f_nret f) vals'). split; [unfold exec; unfold env in *; rewrite Hrun; reflexivity|]. split.
    - apply result_length.
    - intros i Hi. rewrite (result_nth N _ _ _ Hi).
      destruct (lookup_nat i vals') as [v|] eqn:E.
      + left. apply lookup_nat_In in E. destruct (Hfrom i v E) as [[]|(e & He & Hse)].
        exists e, v. auto.
      + right. split; [|reflexivity]. intros e He. destruct (Hall i e He) as (v & Hin & _).
        destruct (In_lookup_nat _ _ _ Hin) as [w Hw]. congruence.
  Qed.

  Corollary exec_total (f : func) :
    sizes_ok -> reserved_free = true ->
    valid_body (f_nret f) reserved (f_body f) = true ->
    exists out, exec N f with_dt inp = Some out /\ length out = f_nret f.
  Proof. intros H1 H2 H3. destruct (exec_sound f H1 H2 H3) as (out & A & B & _). exists out. auto. Qed.
End Sem.
