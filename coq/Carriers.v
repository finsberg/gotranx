(* Carriers.v — QcOps, the carrier of exact rationals in canonical form (Leibniz equality), used to show by
   computation that the hypotheses of the theorems are satisfiable and to compute counterexamples.  The elementary
   functions have no rational semantics; on this carrier they are the constant 0 and the carrier is only used on the
   rational fragment.  The float64 carrier lives in the OCaml driver (ocaml/driver.ml), the real one in RealsC.v.
   Also RingLaws, the equations behind "with dt = 0 the states are returned" (C05), which QcOps satisfies. *)
From GX Require Import Expr.
From Coq Require Import QArith Qcanon Qround.
Open Scope Qc_scope.

Definition qc_b (b : bool) : Qc := if b then 1 else 0.
Definition qc_nz (a : Qc) : bool := negb (Qc_eq_bool a 0).

Definition qc_mod (a b : Qc) : Qc :=
  if Qc_eq_bool b 0 then 0 else a - b * Q2Qc (inject_Z (Qfloor (a / b))).

(* integer powers only (rational exponents have no rational semantics) *)
Definition qc_pow (a b : Qc) : Qc :=
  let z := Qfloor b in
  match z with
  | Z0 => 1
  | Zpos p => Qcpower a (Pos.to_nat p)
  | Zneg p => / (Qcpower a (Pos.to_nat p))
  end.

Definition qc_lt (a b : Qc) : bool := match a ?= b with Lt => true | _ => false end.

Definition QcOps : NumOps Qc := {|
  ofQ := Q2Qc;
  cpi := Q2Qc (355 # 113);
  add := Qcplus; sub := Qcminus; mul := Qcmult; div := Qcdiv;
  pow := qc_pow;
  neg := Qcopp;
  fn := fun f a => match f with
                   | Fabs => if qc_lt a 0 then - a else a
                   | Ffloor => Q2Qc (inject_Z (Qfloor a))
                   | _ => 0
                   end;
  fmod := qc_mod;
  rel := fun r a b => qc_b (match r with
                            | Rlt => qc_lt a b | Rgt => qc_lt b a
                            | Rle => negb (qc_lt b a) | Rge => negb (qc_lt a b)
                            | Req => Qc_eq_bool a b | Rne => negb (Qc_eq_bool a b) end);
  bnot := fun a => qc_b (negb (qc_nz a));
  band := fun a b => qc_b (qc_nz a && qc_nz b);
  bor := fun a b => qc_b (qc_nz a || qc_nz b);
  select := fun c a b => if qc_nz c then a else b |}.

(* not the axioms of a ring: the four equations Theory.euler_dt0 ("with dt = 0 the states are returned") uses -
   + and * commute (Valid.CommOps: the validator accepts the operands of the Euler update in either order),
   0 * a = 0  and  a + 0 = a *)
Record RingLaws {T} (N : NumOps T) : Prop := {
  rl_add_comm : forall a b, add N a b = add N b a;
  rl_mul_comm : forall a b, mul N a b = mul N b a;
  rl_mul_zero : forall a, mul N (ofQ N 0) a = ofQ N 0;
  rl_add_zero : forall a, add N a (ofQ N 0) = a }.

Lemma QcOps_ring : RingLaws QcOps.
Proof.
  constructor.
  - exact Qcplus_comm.
  - exact Qcmult_comm.
  - exact Qcmult_0_l.
  - exact Qcplus_0_r.
Qed.

(* the C view of the rationals (for computed counterexamples, C02) *)
Definition qc_ofZ (z : Z) : Qc := Q2Qc (inject_Z z).
Definition qc_trunc (a : Qc) : Qc :=
  if qc_lt a 0 then - Q2Qc (inject_Z (Qfloor (- a))) else Q2Qc (inject_Z (Qfloor a)).
Definition qc_cfmod (a b : Qc) : Qc := if Qc_eq_bool b 0 then 0 else a - b * qc_trunc (a / b).
