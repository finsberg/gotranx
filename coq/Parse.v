(* Parse.v — the expression grammar of ode.lark as an executable recursive-descent parser over tokens, and a
   printer it inverts.  The grammar as it is modelled:

     expression : term (("+"|"-") term)*
     term       : factor (("*"|"/") factor)*
     factor     : ("+"|"-") factor | power
     power      : atom ("**" factor)?
     atom       : NUMBER | VARIABLE | "pi" | "(" expression ")" | NAME "(" expression ("," expression)* ")"

   Partial: ode.lark also has the unary "~" (Lark reads it, the transformer refuses it; here no token exists for it),
   the alternative signedatom : SIGN signedatom, and trailing commas before the ")" of a call, which gotranx
   accepts (sin(a,) loads as sin(a)) and parse_expr refuses.

   [parse_expr] returns the Gallina [expr] that expressions.build_expression assigns to the parse tree (left
   associative sums and products, unary minus below the power, right associative power through the factor
   exponent, And / Or folded to the left, ContinuousConditional expanded); the harness runs it, behind Lex.lex, on
   the source text of the expressions of every generated model and compares the result with the tree Lark builds.
   [print_expr] writes an expression with every operand in parentheses;
   [print_then_parse]: what was printed is read back in front of whatever may follow an expression, with the fuel
   parse_expr uses; [parse_print]: parse_expr reads the printed form back as the expression (C11, at the level of
   tokens). *)
From GX Require Import Base Expr.
From Coq Require Import QArith Lia.
Open Scope string_scope.
Open Scope list_scope.
Open Scope nat_scope.

Inductive tok :=
| TNum (q : Q) (int_lit : bool)
| TId (s : string)
| TPlus | TMinus | TStar | TSlash | TPow | TLP | TRP | TComma.

Definition res (A : Type) := option (A * list tok).

Definition fn_of_name (s : string) : option fn1 :=
  if String.eqb s "exp" then Some Fexp else if String.eqb s "cos" then Some Fcos
  else if String.eqb s "sin" then Some Fsin else if String.eqb s "tan" then Some Ftan
  else if String.eqb s "acos" then Some Facos else if String.eqb s "asin" then Some Fasin
  else if String.eqb s "atan" then Some Fatan else if String.eqb s "log" then Some Flog
  else if String.eqb s "ln" then Some Flog else if String.eqb s "sqrt" then Some Fsqrt
  else if String.eqb s "abs" then Some Fabs else if String.eqb s "Abs" then Some Fabs
  else if String.eqb s "floor" then Some Ffloor else None.

Definition rel_of_name (s : string) : option relop :=
  if String.eqb s "Lt" then Some Rlt else if String.eqb s "Gt" then Some Rgt
  else if String.eqb s "Le" then Some Rle else if String.eqb s "Ge" then Some Rge
  else if String.eqb s "Eq" then Some Req else None.

(* the keyword terminals of the grammar: never variables *)
Definition is_keyword (s : string) : bool :=
  match fn_of_name s, rel_of_name s with
  | Some _, _ | _, Some _ => true
  | None, None =>
      String.eqb s "Mod" || String.eqb s "Not" || String.eqb s "And" || String.eqb s "Or"
      || String.eqb s "Conditional" || String.eqb s "ContinuousConditional" || String.eqb s "pi"
  end.

Fixpoint fold_conn (f : expr -> expr -> expr) (acc : expr) (l : list expr) : expr :=
  match l with
  | [] => acc
  | x :: l' => fold_conn f (f acc x) l'
  end.

Definition mk_call (s : string) (args : list expr) : option expr :=
  match fn_of_name s, args with
  | Some f, [a] => Some (EFn f a)
  | Some _, _ => None
  | None, _ =>
    match rel_of_name s, args with
    | Some r, [a; b] => Some (ERel r a b)
    | Some _, _ => None
    | None, _ =>
      if String.eqb s "Mod" then match args with [a; b] => Some (EMod a b) | _ => None end
      else if String.eqb s "Not" then match args with [a] => Some (ENot a) | _ => None end
      else if String.eqb s "And" then match args with a :: l => Some (fold_conn EAnd a l) | [] => None end
      else if String.eqb s "Or" then match args with a :: l => Some (fold_conn EOr a l) | [] => None end
      else if String.eqb s "Conditional" then match args with [c; a; b] => Some (ECond c a b) | _ => None end
      else if String.eqb s "ContinuousConditional" then
        match args with
        | [ERel r a b; tv; fv; sg] => Some (mk_ccond r a b tv fv sg)
        | _ => None
        end
      else None
    end
  end.

(* the six mutually recursive parsers of the grammar as one record, defined by levels of fuel: P (S n) calls P n *)
Record parsers := mkP {
  p_expr : list tok -> res expr;
  p_term : list tok -> res expr;
  p_factor : list tok -> res expr;
  p_erest : expr -> list tok -> res expr;
  p_trest : expr -> list tok -> res expr;
  p_args : list tok -> res (list expr) }.

Definition P0 : parsers :=
  mkP (fun _ => None) (fun _ => None) (fun _ => None) (fun _ _ => None) (fun _ _ => None) (fun _ => None).

Definition atom (k : parsers) (ts : list tok) : res expr :=
  match ts with
  | TNum q i :: r => Some (ENum q i, r)
  | TLP :: r => match p_expr k r with
                | Some (e, TRP :: r') => Some (e, r')
                | _ => None
                end
  | TId s :: r =>
      if is_keyword s then
        if String.eqb s "pi" then Some (EPi, r)
        else match r with
             | TLP :: r1 => match p_args k r1 with
                            | Some (args, TRP :: r2) => match mk_call s args with
                                                        | Some e => Some (e, r2)
                                                        | None => None
                                                        end
                            | _ => None
                            end
             | _ => None
             end
      else match r with
           | TLP :: _ => None
           | _ => Some (EVar s, r)
           end
  | _ => None
  end.

Definition power (k : parsers) (ts : list tok) : res expr :=
  match atom k ts with
  | Some (a, TPow :: r) => match p_factor k r with
                           | Some (b, r') => Some (EPow a b, r')
                           | None => None
                           end
  | other => other
  end.

Definition step_parsers (k : parsers) : parsers :=
  mkP
    (fun ts => match p_term k ts with Some (a, r) => p_erest k a r | None => None end)
    (fun ts => match p_factor k ts with Some (a, r) => p_trest k a r | None => None end)
    (fun ts => match ts with
               | TPlus :: r => p_factor k r
               | TMinus :: r => match p_factor k r with Some (a, r') => Some (ENeg a, r') | None => None end
               | _ => power k ts
               end)
    (fun acc ts => match ts with
                   | TPlus :: r => match p_term k r with Some (b, r') => p_erest k (EAdd acc b) r' | None => None end
                   | TMinus :: r => match p_term k r with Some (b, r') => p_erest k (ESub acc b) r' | None => None end
                   | _ => Some (acc, ts)
                   end)
    (fun acc ts => match ts with
                   | TStar :: r => match p_factor k r with Some (b, r') => p_trest k (EMul acc b) r' | None => None end
                   | TSlash :: r => match p_factor k r with Some (b, r') => p_trest k (EDiv acc b) r' | None => None end
                   | _ => Some (acc, ts)
                   end)
    (fun ts => match p_expr k ts with
               | Some (e, TComma :: r) => match p_args k r with
                                          | Some (es, r') => Some (e :: es, r')
                                          | None => None
                                          end
               | Some (e, r) => Some ([e], r)
               | None => None
               end).

Fixpoint P (n : nat) : parsers :=
  match n with
  | O => P0
  | S k => step_parsers (P k)
  end.

(* the whole token list must be an expression; the fuel is generous: every token costs at most six levels *)
Definition parse_expr (ts : list tok) : option expr :=
  match p_expr (P (6 * List.length ts + 6)%nat) ts with
  | Some (e, []) => Some e
  | _ => None
  end.

Definition le_parsers (a b : parsers) : Prop :=
  (forall ts r, p_expr a ts = Some r -> p_expr b ts = Some r)
  /\ (forall ts r, p_term a ts = Some r -> p_term b ts = Some r)
  /\ (forall ts r, p_factor a ts = Some r -> p_factor b ts = Some r)
  /\ (forall acc ts r, p_erest a acc ts = Some r -> p_erest b acc ts = Some r)
  /\ (forall acc ts r, p_trest a acc ts = Some r -> p_trest b acc ts = Some r)
  /\ (forall ts r, p_args a ts = Some r -> p_args b ts = Some r).

(* [ole x y]: y is x or better, so that [le_parsers a b] reads [ole (p_expr a ts) (p_expr b ts)], and so on for the six
   parsers.  They are built from matches on results with None passed on, so [ole_bind] carries the order through them *)
Definition ole {A} (x y : option A) : Prop := forall r, x = Some r -> y = Some r.

Lemma ole_refl {A} (x : option A) : ole x x.
Proof. intros r H. exact H. Qed.

Lemma ole_bind {A B C} (x y : option (A * B)) (f g : A -> B -> option C) :
  ole x y -> (forall a b, ole (f a b) (g a b)) ->
  ole (match x with Some (a, b) => f a b | None => None end) (match y with Some (a, b) => g a b | None => None end).
Proof. intros Hx Hf r. destruct x as [[a b]|]; [|discriminate]. rewrite (Hx _ eq_refl). apply Hf. Qed.

(* the two loops of the grammar, (("+"|"-") term)* and (("*"|"/") factor)*, are one function of the operator table *)
Definition addop (o : tok) := match o with TPlus => Some EAdd | TMinus => Some ESub | _ => None end.
Definition mulop (o : tok) := match o with TStar => Some EMul | TSlash => Some EDiv | _ => None end.

Definition loop (op : tok -> option (expr -> expr -> expr)) (sub : list tok -> res expr)
    (again : expr -> list tok -> res expr) (acc : expr) (ts : list tok) : res expr :=
  match ts with
  | o :: r => match op o with
              | Some c => match sub r with Some (b, r') => again (c acc b) r' | None => None end
              | None => Some (acc, ts)
              end
  | [] => Some (acc, ts)
  end.

Lemma erest_loop k acc ts : p_erest (step_parsers k) acc ts = loop addop (p_term k) (p_erest k) acc ts.
Proof. destruct ts as [|[] ts]; reflexivity. Qed.

Lemma trest_loop k acc ts : p_trest (step_parsers k) acc ts = loop mulop (p_factor k) (p_trest k) acc ts.
Proof. destruct ts as [|[] ts]; reflexivity. Qed.

Lemma loop_mono {op sub sub' again again' acc ts} :
  (forall ts, ole (sub ts) (sub' ts)) -> (forall acc ts, ole (again acc ts) (again' acc ts)) ->
  ole (loop op sub again acc ts) (loop op sub' again' acc ts).
Proof.
  intros Hs Ha. destruct ts as [|o r]; [apply ole_refl|]. cbn [loop]. destruct (op o) as [c|]; [|apply ole_refl].
  apply ole_bind; [apply Hs|intros b r'; apply Ha].
Qed.

Section Step.
  Variables a b : parsers.
  Hypotheses (He : forall ts, ole (p_expr a ts) (p_expr b ts)) (Hf : forall ts, ole (p_factor a ts) (p_factor b ts))
             (Ha : forall ts, ole (p_args a ts) (p_args b ts)).

  Lemma atom_mono ts : ole (atom a ts) (atom b ts).
  Proof.
    destruct ts as [|[] ts]; try apply ole_refl; unfold atom.
    - case (is_keyword s); [|apply ole_refl]. case (String.eqb s "pi"); [apply ole_refl|].
      destruct ts as [|[] ts]; try apply ole_refl. apply ole_bind; [exact (Ha ts)|intros; apply ole_refl].
    - apply ole_bind; [exact (He ts)|intros; apply ole_refl].
  Qed.

  Lemma power_mono ts : ole (power a ts) (power b ts).
  Proof.
    apply ole_bind; [exact (atom_mono ts)|]. intros x [|[] r]; try apply ole_refl.
    apply ole_bind; [exact (Hf r)|intros; apply ole_refl].
  Qed.

  Lemma factor_mono ts : ole (p_factor (step_parsers a) ts) (p_factor (step_parsers b) ts).
  Proof.
    destruct ts as [|[] ts]; try apply power_mono; cbn [step_parsers p_factor]; [exact (Hf ts)|].
    apply ole_bind; [exact (Hf ts)|intros; apply ole_refl].
  Qed.

  Lemma args_mono ts : ole (p_args (step_parsers a) ts) (p_args (step_parsers b) ts).
  Proof.
    cbn [step_parsers p_args]. apply ole_bind; [exact (He ts)|]. intros e [|[] r]; try apply ole_refl.
    apply ole_bind; [exact (Ha r)|intros; apply ole_refl].
  Qed.
End Step.

Lemma step_mono a b : le_parsers a b -> le_parsers (step_parsers a) (step_parsers b).
Proof.
  intros (He & Ht & Hf & Her & Htr & Ha). repeat split.
  - intros ts. cbn [step_parsers p_expr]. apply ole_bind; [exact (Ht ts)|exact Her].
  - intros ts. cbn [step_parsers p_term]. apply ole_bind; [exact (Hf ts)|exact Htr].
  - exact (factor_mono a b He Hf Ha).
  - intros acc ts. rewrite !erest_loop. exact (loop_mono Ht Her).
  - intros acc ts. rewrite !trest_loop. exact (loop_mono Hf Htr).
  - exact (args_mono a b He Ha).
Qed.

Lemma P_mono n m : (n <= m)%nat -> le_parsers (P n) (P m).
Proof.
  revert m. induction n as [|n IH]; intros m H.
  - repeat split; intros; discriminate.
  - destruct m as [|m]; [inversion H|]. exact (step_mono _ _ (IH m (le_S_n _ _ H))).
Qed.

Definition fn_name (f : fn1) : string :=
  match f with
  | Fexp => "exp" | Fcos => "cos" | Fsin => "sin" | Ftan => "tan" | Facos => "acos" | Fasin => "asin"
  | Fatan => "atan" | Flog => "log" | Fsqrt => "sqrt" | Fabs => "abs" | Ffloor => "floor"
  end.
Definition rel_name (r : relop) : string :=
  match r with Rlt => "Lt" | Rgt => "Gt" | Rle => "Le" | Rge => "Ge" | Req => "Eq" | Rne => "Ne" end.

Fixpoint print_expr (e : expr) : list tok :=
  let par x := TLP :: print_expr x ++ [TRP] in
  match e with
  | ENum q i => [TNum q i]
  | EVar x => [TId x]
  | EPi => [TId "pi"]
  | EAdd a b => par a ++ TPlus :: par b
  | ESub a b => par a ++ TMinus :: par b
  | EMul a b => par a ++ TStar :: par b
  | EDiv a b => par a ++ TSlash :: par b
  | EPow a b => par a ++ TPow :: par b
  | ENeg a => TMinus :: par a
  | EFn f a => TId (fn_name f) :: TLP :: print_expr a ++ [TRP]
  | EMod a b => TId "Mod" :: TLP :: print_expr a ++ TComma :: print_expr b ++ [TRP]
  | ERel r a b => TId (rel_name r) :: TLP :: print_expr a ++ TComma :: print_expr b ++ [TRP]
  | ENot a => TId "Not" :: TLP :: print_expr a ++ [TRP]
  | EAnd a b => TId "And" :: TLP :: print_expr a ++ TComma :: print_expr b ++ [TRP]
  | EOr a b => TId "Or" :: TLP :: print_expr a ++ TComma :: print_expr b ++ [TRP]
  | ECond c a b => TId "Conditional" :: TLP :: print_expr c ++ TComma :: print_expr a ++ TComma :: print_expr b ++ [TRP]
  end.

(* what can be written: variables are not keywords; the language has no "not equal" *)
Fixpoint writable (e : expr) : Prop :=
  match e with
  | ENum _ _ | EPi => True
  | EVar x => is_keyword x = false
  | EAdd a b | ESub a b | EMul a b | EDiv a b | EPow a b | EMod a b | EAnd a b | EOr a b => writable a /\ writable b
  | ERel r a b => r <> Rne /\ writable a /\ writable b
  | ENeg a | EFn _ a | ENot a => writable a
  | ECond c a b => writable c /\ writable a /\ writable b
  end.

Definition stop (rest : list tok) : Prop := match rest with [] | TRP :: _ | TComma :: _ => True | _ => False end.

(* [G X n]: from fuel n on, X is read back in front of anything that ends an expression *)
Definition G (X : expr) (n : nat) : Prop :=
  forall m, (n <= m)%nat -> forall rest, stop rest -> p_expr (P m) (print_expr X ++ rest) = Some (X, rest).

Lemma G_le {X n} m : G X n -> n <= m -> G X m.
Proof. intros H Hn k Hk. exact (H k (Nat.le_trans _ _ _ Hn Hk)). Qed.

(* what a token list does not begin with.  Said of what follows an operand, it makes the operand a whole factor, term,
   expression; [factor_power] and [expr_of_atom] say [noadd] of the operand's own tokens: no sign in front *)
Definition noop (op : tok -> option (expr -> expr -> expr)) (rest : list tok) : Prop :=
  match rest with o :: _ => op o = None | [] => True end.
Definition nopow (rest : list tok) : Prop := match rest with TPow :: _ => False | _ => True end.
Definition nomul := noop mulop.
Definition noadd := noop addop.

Lemma stop_no {rest} : stop rest -> nopow rest /\ nomul rest /\ noadd rest.
Proof. destruct rest as [|[] rest]; intros H; try destruct H; repeat split. Qed.

Lemma loop_stop {op sub again acc rest} : noop op rest -> loop op sub again acc rest = Some (acc, rest).
Proof. destruct rest as [|o r]; [reflexivity|]. cbn [noop loop]. intros ->. reflexivity. Qed.

(* The productions, one level of fuel each.  P 0 reads nothing, so a premise at fuel k makes k a successor, and the loop
   behind the operand has the level it needs to stop *)
Lemma expr_one {k ts X rest} : p_term (P k) ts = Some (X, rest) -> noadd rest -> p_expr (P (S k)) ts = Some (X, rest).
Proof.
  intros H Hr. destruct k as [|k]; [discriminate H|]. cbn [P] in *. cbn [step_parsers p_expr].
  rewrite H, erest_loop. exact (loop_stop Hr).
Qed.

Lemma expr_two o {c k ts1 ts2 a b rest} :
  addop o = Some c -> p_term (P (S k)) ts1 = Some (a, o :: ts2) -> p_term (P k) ts2 = Some (b, rest) -> noadd rest ->
  p_expr (P (S (S k))) ts1 = Some (c a b, rest).
Proof.
  intros Ho H1 H2 Hr. destruct k as [|k]; [discriminate H2|]. cbn [P] in *. cbn [step_parsers p_expr].
  rewrite H1, erest_loop. cbn [loop]. rewrite Ho, H2, erest_loop. exact (loop_stop Hr).
Qed.

Lemma term_one {k ts X rest} : p_factor (P k) ts = Some (X, rest) -> nomul rest -> p_term (P (S k)) ts = Some (X, rest).
Proof.
  intros H Hr. destruct k as [|k]; [discriminate H|]. cbn [P] in *. cbn [step_parsers p_term].
  rewrite H, trest_loop. exact (loop_stop Hr).
Qed.

Lemma term_two o {c k ts1 ts2 a b rest} :
  mulop o = Some c -> p_factor (P (S k)) ts1 = Some (a, o :: ts2) -> p_factor (P k) ts2 = Some (b, rest) -> nomul rest ->
  p_term (P (S (S k))) ts1 = Some (c a b, rest).
Proof.
  intros Ho H1 H2 Hr. destruct k as [|k]; [discriminate H2|]. cbn [P] in *. cbn [step_parsers p_term].
  rewrite H1, trest_loop. cbn [loop]. rewrite Ho, H2, trest_loop. exact (loop_stop Hr).
Qed.

Lemma factor_neg {k ts a r} : p_factor (P k) ts = Some (a, r) -> p_factor (P (S k)) (TMinus :: ts) = Some (ENeg a, r).
Proof. intros H. cbn [P step_parsers p_factor]. rewrite H. reflexivity. Qed.

(* no sign begins the factor itself, so it is a power *)
Lemma factor_power {k} ts {r} : noadd ts -> power (P k) ts = Some r -> p_factor (P (S k)) ts = Some r.
Proof. intros Hh <-. destruct ts as [|[] ts]; try reflexivity; discriminate Hh. Qed.

Lemma power_pow {k ts a b r r'} :
  atom k ts = Some (a, TPow :: r) -> p_factor k r = Some (b, r') -> power k ts = Some (EPow a b, r').
Proof. intros H1 H2. unfold power. rewrite H1, H2. reflexivity. Qed.

Lemma power_atom {k ts a r} : atom k ts = Some (a, r) -> nopow r -> power k ts = Some (a, r).
Proof. intros H Hp. unfold power. rewrite H. destruct r as [|[] r]; try reflexivity; destruct Hp. Qed.

Lemma atom_call {k s args ts rest e} :
  is_keyword s = true -> String.eqb s "pi" = false -> mk_call s args = Some e ->
  p_args k ts = Some (args, TRP :: rest) -> atom k (TId s :: TLP :: ts) = Some (e, rest).
Proof. intros Hk Hpi Hc Ha. unfold atom. rewrite Hk, Hpi, Ha, Hc. reflexivity. Qed.

Lemma expr_of_atom {k ts X rest} :
  atom (P k) ts = Some (X, rest) -> stop rest -> noadd ts -> p_expr (P (3 + k)) ts = Some (X, rest).
Proof.
  intros Ha Hs Hh. destruct (stop_no Hs) as (H1 & H2 & H3).
  exact (expr_one (term_one (factor_power ts Hh (power_atom Ha H1)) H2) H3).
Qed.

Definition par (x : expr) : list tok := TLP :: print_expr x ++ [TRP].

Lemma atom_par {X k} rest : G X k -> atom (P k) (par X ++ rest) = Some (X, rest).
Proof.
  intros HG. unfold par, atom. cbn [app]. rewrite <- app_assoc, (HG k (le_n k) ([TRP] ++ rest) I). reflexivity.
Qed.

Lemma factor_par {X k} rest : G X k -> nopow rest -> p_factor (P (S k)) (par X ++ rest) = Some (X, rest).
Proof. intros HG Hp. exact (factor_power (par X ++ rest) eq_refl (power_atom (atom_par rest HG) Hp)). Qed.

Lemma term_par {X k} rest : G X k -> nopow rest -> nomul rest -> p_term (P (S (S k))) (par X ++ rest) = Some (X, rest).
Proof. intros HG Hp Hn. exact (term_one (factor_par rest HG Hp) Hn). Qed.

Fixpoint pargs (a : expr) (l : list expr) (k : list tok) : list tok :=
  print_expr a ++ match l with [] => k | b :: l' => TComma :: pargs b l' k end.

Lemma pargs_app l : forall a k rest, pargs a l k ++ rest = pargs a l (k ++ rest).
Proof.
  induction l as [|b l IH]; intros a k rest; cbn [pargs]; rewrite <- app_assoc; [reflexivity|].
  cbn [app]. rewrite IH. reflexivity.
Qed.

Fixpoint Gs (l : list expr) : Prop :=
  match l with [] => True | a :: l' => G a (6 * List.length (print_expr a)) /\ Gs l' end.

Lemma fuel_split x y m : 6 * (x + S y) <= m -> 6 * x <= m /\ 6 * y < m.
Proof. lia. Qed.

Lemma args_printed l : forall a rest m, Gs (a :: l) -> 6 * List.length (pargs a l [TRP]) < m ->
  p_args (P m) (pargs a l (TRP :: rest)) = Some (a :: l, TRP :: rest).
Proof.
  induction l as [|b l IH]; intros a rest [|m] [Ha H] Hm; try destruct (Nat.nlt_0_r _ Hm).
  (* one level goes to p_args; the bound is then split between the first argument and what follows it, which is
     one token at least ([TRP], or the comma and the other arguments): the [S y] of fuel_split *)
  all: apply le_S_n in Hm; cbn [pargs] in Hm; rewrite app_length in Hm.
  all: destruct (fuel_split _ _ _ Hm) as [H1 H2]; cbn [pargs P step_parsers p_args].
  - rewrite (Ha m H1 (TRP :: rest) I). reflexivity.
  - rewrite (Ha m H1 (TComma :: _) I), (IH b rest m H H2). reflexivity.
Qed.

(* the fuel n at which the rules read X need only be below the bound: more fuel changes nothing *)
Lemma G_intro X n :
  (forall rest, stop rest -> p_expr (P n) (print_expr X ++ rest) = Some (X, rest)) ->
  n <= 6 * List.length (print_expr X) -> G X (6 * List.length (print_expr X)).
Proof. intros H Hn m Hm rest Hs. exact (proj1 (P_mono n m (Nat.le_trans _ _ _ Hn Hm)) _ _ (H rest Hs)). Qed.

(* a o b with the operands in parentheses: whichever production reads it, the operands are read with fuel k, the left one
   a level higher, and there are four levels above *)
Lemma G_infix X a o b :
  print_expr X = par a ++ o :: par b -> G a (6 * List.length (print_expr a)) -> G b (6 * List.length (print_expr b)) ->
  (forall k rest, G a (S k) -> G b k -> nopow rest -> nomul rest -> noadd rest ->
   p_expr (P (4 + k)) (par a ++ o :: par b ++ rest) = Some (X, rest)) ->
  G X (6 * List.length (print_expr X)).
Proof.
  intros E Ha Hb H. apply (G_intro X (4 + (6 * List.length (print_expr a) + 6 * List.length (print_expr b)))); rewrite E.
  - intros rest Hs. destruct (stop_no Hs) as (H1 & H2 & H3). rewrite <- app_assoc.
    exact (H _ rest (G_le _ Ha (le_S _ _ (Nat.le_add_r _ _))) (G_le _ Hb (Nat.le_add_l _ _)) H1 H2 H3).
  - unfold par. repeat (rewrite app_length || cbn [app List.length]). lia.
Qed.

Lemma G_call s a l e :
  is_keyword s = true -> String.eqb s "pi" = false -> mk_call s (a :: l) = Some e ->
  print_expr e = TId s :: TLP :: pargs a l [TRP] -> Gs (a :: l) -> G e (6 * List.length (print_expr e)).
Proof.
  intros Hk Hpi Hc E H. apply (G_intro e (4 + 6 * List.length (pargs a l [TRP]))); rewrite E.
  - intros rest Hs. cbn [app]. rewrite pargs_app.
    exact (expr_of_atom (atom_call Hk Hpi Hc (args_printed l a rest _ H (le_n _))) Hs eq_refl).
  - cbn [List.length]. lia.
Qed.

Lemma call_fn f a :
  is_keyword (fn_name f) = true /\ String.eqb (fn_name f) "pi" = false /\ mk_call (fn_name f) [a] = Some (EFn f a).
Proof. destruct f; repeat split. Qed.

Lemma call_rel r a b : r <> Rne ->
  is_keyword (rel_name r) = true /\ String.eqb (rel_name r) "pi" = false /\ mk_call (rel_name r) [a; b] = Some (ERel r a b).
Proof. destruct r; intros H; try (repeat split; fail). contradiction. Qed.

(* the fuel parse_expr uses is enough *)
Theorem print_then_parse e : writable e -> G e (6 * List.length (print_expr e)).
Proof.
  induction e as [q i|x| |a IHa b IHb|a IHa b IHb|a IHa b IHb|a IHa b IHb|a IHa b IHb|a IHa|f a IHa
                  |a IHa b IHb|r a IHa b IHb|a IHa|a IHa b IHb|a IHa b IHb|c IHc a IHa b IHb];
    cbn [writable]; intros W.
  1-3: apply (G_intro _ 3); [intros rest Hs; apply (expr_of_atom (k:=0)); [|exact Hs|reflexivity]|repeat constructor].
  4-8: eapply (G_infix _ a _ b); [reflexivity|exact (IHa (proj1 W))|exact (IHb (proj2 W))|intros k rest Ga Gb H1 H2 H3].
  - (* ENum *) reflexivity.
  - (* EVar: not a keyword, and no "(" follows *)
    cbn [print_expr app atom]. rewrite W. destruct rest as [|[] rest]; try reflexivity; destruct Hs.
  - (* EPi *) reflexivity.
  - (* EAdd *) exact (expr_two TPlus eq_refl (term_par (TPlus :: _) Ga I eq_refl) (term_par _ Gb H1 H2) H3).
  - (* ESub *) exact (expr_two TMinus eq_refl (term_par (TMinus :: _) Ga I eq_refl) (term_par _ Gb H1 H2) H3).
  - (* EMul *) exact (expr_one (term_two TStar eq_refl (factor_par (TStar :: _) Ga I) (factor_par _ Gb H1) H2) H3).
  - (* EDiv *) exact (expr_one (term_two TSlash eq_refl (factor_par (TSlash :: _) Ga I) (factor_par _ Gb H1) H2) H3).
  - (* EPow *)
    exact (expr_one (term_one (factor_power (par a ++ _) eq_refl (power_pow (atom_par _ Ga) (factor_par _ Gb H1))) H2) H3).
  - (* ENeg *)
    apply (G_intro _ (4 + 6 * List.length (print_expr a))).
    + intros rest Hs. destruct (stop_no Hs) as (H1 & H2 & H3).
      exact (expr_one (term_one (factor_neg (factor_par _ (IHa W) H1)) H2) H3).
    + cbn [print_expr]. repeat (rewrite app_length || cbn [List.length]). lia.
  - (* EFn *) destruct (call_fn f a) as (K1 & K2 & K3). exact (G_call _ a [] _ K1 K2 K3 eq_refl (conj (IHa W) I)).
  - (* EMod *) destruct W as [Wa Wb]. exact (G_call "Mod" a [b] _ eq_refl eq_refl eq_refl eq_refl (conj (IHa Wa) (conj (IHb Wb) I))).
  - (* ERel *) destruct W as (Wr & Wa & Wb). destruct (call_rel r a b Wr) as (K1 & K2 & K3).
    exact (G_call _ a [b] _ K1 K2 K3 eq_refl (conj (IHa Wa) (conj (IHb Wb) I))).
  - (* ENot *) exact (G_call "Not" a [] _ eq_refl eq_refl eq_refl eq_refl (conj (IHa W) I)).
  - (* EAnd *) destruct W as [Wa Wb]. exact (G_call "And" a [b] _ eq_refl eq_refl eq_refl eq_refl (conj (IHa Wa) (conj (IHb Wb) I))).
  - (* EOr *) destruct W as [Wa Wb]. exact (G_call "Or" a [b] _ eq_refl eq_refl eq_refl eq_refl (conj (IHa Wa) (conj (IHb Wb) I))).
  - (* ECond *) destruct W as (Wc & Wa & Wb).
    exact (G_call "Conditional" c [a; b] _ eq_refl eq_refl eq_refl eq_refl (conj (IHc Wc) (conj (IHa Wa) (conj (IHb Wb) I)))).
Qed.

(* the round trip for the parser as it is run: every writable expression has a token sequence - the one
   print_expr writes - that parse_expr reads back as exactly that expression *)
Corollary parse_print e : writable e -> parse_expr (print_expr e) = Some e.
Proof.
  intros W. unfold parse_expr.
  pose proof (print_then_parse e W _ (Nat.le_add_r _ 6) [] I) as H.
  rewrite app_nil_r in H. rewrite H. reflexivity.
Qed.

(* so the grammar is unambiguous on printed text *)
Corollary print_expr_injective a b : writable a -> writable b -> print_expr a = print_expr b -> a = b.
Proof.
  intros Wa Wb E. pose proof (parse_print a Wa) as H. rewrite E, (parse_print b Wb) in H. injection H as ->. reflexivity.
Qed.

(* precedence and associativity of the unparenthesised forms, and three refusals (computed) *)
Definition v (s : string) := TId s.
Example precedence_examples :
  parse_expr [v "a"; TMinus; v "b"; TMinus; v "c"] = Some (ESub (ESub (EVar "a") (EVar "b")) (EVar "c"))
  /\ parse_expr [v "a"; TSlash; v "b"; TStar; v "c"] = Some (EMul (EDiv (EVar "a") (EVar "b")) (EVar "c"))
  /\ parse_expr [TMinus; v "a"; TPow; v "b"] = Some (ENeg (EPow (EVar "a") (EVar "b")))
  /\ parse_expr [v "a"; TPow; v "b"; TPow; v "c"] = Some (EPow (EVar "a") (EPow (EVar "b") (EVar "c")))
  /\ parse_expr [v "a"; TPlus; v "b"; TStar; v "c"; TPow; TMinus; v "d"]
     = Some (EAdd (EVar "a") (EMul (EVar "b") (EPow (EVar "c") (ENeg (EVar "d")))))
  /\ parse_expr [v "And"; TLP; v "a"; TComma; v "b"; TComma; v "c"; TRP] = Some (EAnd (EAnd (EVar "a") (EVar "b")) (EVar "c"))
  /\ parse_expr [v "cos"] = None
  /\ parse_expr [v "x"; TLP; v "a"; TRP] = None
  /\ parse_expr [v "a"; TPlus] = None.
Proof. vm_compute. repeat split. Qed.
