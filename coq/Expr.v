(* Expr.v — abstract syntax of .ode right-hand sides and their reference semantics,
   generic in the numeric carrier (NumOps T).  The same [eval] is instantiated with OCaml doubles
   (extraction, supplied by the driver as a record value), with exact rationals, with reals and
   with vectors (columns of a batch).  Then mk_ccond (sympytools.ContinuousConditional written out),
   simultaneous substitution (sympy's xreplace) and structural equality of expressions. *)
From GX Require Import Base.
From Coq Require Import QArith_base.
Open Scope string_scope.
Open Scope list_scope.

Inductive fn1 := Fexp | Fcos | Fsin | Ftan | Facos | Fasin | Fatan | Flog | Fsqrt | Fabs | Ffloor.
Inductive relop := Rlt | Rgt | Rle | Rge | Req | Rne.

(* One syntactic class: relations and connectives denote 1 / 0 in the carrier, which is what
   expressions.relational_to_piecewise does when a relation is used arithmetically, and what
   numpy.where / the C ternary consume. *)
Inductive expr :=
| ENum (q : Q) (int_lit : bool)       (* ode.lark scientific: an integer / decimal / exponent literal; int_lit: written
                                         as an integer (no point, no exponent), which makes it an int in C: Cback.is_int *)
| EVar (x : string)
| EPi
| EAdd (a b : expr)
| ESub (a b : expr)
| EMul (a b : expr)
| EDiv (a b : expr)
| EPow (a b : expr)
| ENeg (a : expr)
| EFn (f : fn1) (a : expr)
| EMod (a b : expr)
| ERel (r : relop) (a b : expr)
| ENot (a : expr)
| EAnd (a b : expr)
| EOr (a b : expr)
| ECond (c a b : expr).

(* every "variable" subtree, in left-to-right order, with repetitions:
   atoms.Expression._find_dependencies collects exactly these into a frozenset *)
Fixpoint vars (e : expr) : list string :=
  match e with
  | ENum _ _ | EPi => []
  | EVar x => [x]
  | EAdd a b | ESub a b | EMul a b | EDiv a b | EPow a b | EMod a b
  | ERel _ a b | EAnd a b | EOr a b => vars a ++ vars b
  | ENeg a | EFn _ a | ENot a => vars a
  | ECond c a b => vars c ++ vars a ++ vars b
  end.

Record NumOps (T : Type) := {
  ofQ : Q -> T;
  cpi : T;
  add : T -> T -> T;
  sub : T -> T -> T;
  mul : T -> T -> T;
  div : T -> T -> T;
  pow : T -> T -> T;
  neg : T -> T;
  fn : fn1 -> T -> T;
  fmod : T -> T -> T;          (* floored modulo: sign of the divisor (sympy Mod, Python %) *)
  rel : relop -> T -> T -> T;  (* 1 if the relation holds, 0 otherwise *)
  bnot : T -> T;
  band : T -> T -> T;
  bor : T -> T -> T;
  select : T -> T -> T -> T    (* select c a b = a if c is true (non-zero), b otherwise *)
}.
Arguments ofQ {T}. Arguments cpi {T}. Arguments add {T}. Arguments sub {T}. Arguments mul {T}.
Arguments div {T}. Arguments pow {T}. Arguments neg {T}. Arguments fn {T}. Arguments fmod {T}.
Arguments rel {T}. Arguments bnot {T}. Arguments band {T}. Arguments bor {T}. Arguments select {T}.

Section Eval.
  Context {T : Type} (N : NumOps T).

  Fixpoint eval (rho : string -> T) (e : expr) : T :=
    match e with
    | ENum q _ => ofQ N q
    | EVar x => rho x
    | EPi => cpi N
    | EAdd a b => add N (eval rho a) (eval rho b)
    | ESub a b => sub N (eval rho a) (eval rho b)
    | EMul a b => mul N (eval rho a) (eval rho b)
    | EDiv a b => div N (eval rho a) (eval rho b)
    | EPow a b => pow N (eval rho a) (eval rho b)
    | ENeg a => neg N (eval rho a)
    | EFn f a => fn N f (eval rho a)
    | EMod a b => fmod N (eval rho a) (eval rho b)
    | ERel r a b => rel N r (eval rho a) (eval rho b)
    | ENot a => bnot N (eval rho a)
    | EAnd a b => band N (eval rho a) (eval rho b)
    | EOr a b => bor N (eval rho a) (eval rho b)
    | ECond c a b => select N (eval rho c) (eval rho a) (eval rho b)
    end.

  Lemma eval_ext rho rho' e :
    (forall x, In x (vars e) -> rho x = rho' x) -> eval rho e = eval rho' e.
  Proof.
    induction e; simpl; intros H; try reflexivity;
      try (rewrite IHe; [reflexivity|exact H]);
      try (rewrite IHe1, IHe2, ?IHe3; [reflexivity|..]; intros; apply H; auto 6 using in_or_app).
    apply H. left. reflexivity.
  Qed.
End Eval.

Definition e_int (z : Z) : expr := ENum (inject_Z z) true.
Definition e_one := e_int 1.
Definition e_zero := e_int 0.

(* sympytools.ContinuousConditional(cond, tv, fv, sigma) with cond = rel_op(a, b):
     H = 1 / (1 + exp((a - b) / sigma))
     ">" in rel_op  ->  tv * (1 - H) + fv * H        (Gt, Ge)
     otherwise      ->  tv * H + fv * (1 - H)        (Lt, Le, and - silently - Eq)        *)
Definition mk_ccond (r : relop) (a b tv fv sigma : expr) : expr :=
  let H := EDiv e_one (EAdd e_one (EFn Fexp (EDiv (ESub a b) sigma))) in
  match r with
  | Rgt | Rge => EAdd (EMul tv (ESub e_one H)) (EMul fv H)
  | _ => EAdd (EMul tv H) (EMul fv (ESub e_one H))
  end.

(* sympy's xreplace with a dictionary of symbols, as Sympytools.rhs_matrix uses it;
   Capture.rename is an instance (rename_subst) *)
Fixpoint subst (s : string -> option expr) (e : expr) : expr :=
  match e with
  | ENum _ _ | EPi => e
  | EVar x => match s x with Some e' => e' | None => e end
  | EAdd a b => EAdd (subst s a) (subst s b)
  | ESub a b => ESub (subst s a) (subst s b)
  | EMul a b => EMul (subst s a) (subst s b)
  | EDiv a b => EDiv (subst s a) (subst s b)
  | EPow a b => EPow (subst s a) (subst s b)
  | ENeg a => ENeg (subst s a)
  | EFn f a => EFn f (subst s a)
  | EMod a b => EMod (subst s a) (subst s b)
  | ERel r a b => ERel r (subst s a) (subst s b)
  | ENot a => ENot (subst s a)
  | EAnd a b => EAnd (subst s a) (subst s b)
  | EOr a b => EOr (subst s a) (subst s b)
  | ECond c a b => ECond (subst s c) (subst s a) (subst s b)
  end.

Lemma eval_subst {T} (N : NumOps T) s rho e :
  eval N rho (subst s e) =
  eval N (fun x => match s x with Some e' => eval N rho e' | None => rho x end) e.
Proof.
  set (r := fun x => _).
  induction e; simpl; try (rewrite IHe1, IHe2, ?IHe3; reflexivity); try (rewrite IHe; reflexivity); auto.
  unfold r. destruct (s x); reflexivity.
Qed.

Lemma vars_subst_eq sb e :
  vars (subst sb e) = flat_map (fun x => match sb x with Some e' => vars e' | None => [x] end) (vars e).
Proof.
  set (f := fun x => _).
  induction e; simpl; try (rewrite !flat_map_app, IHe1, IHe2, ?IHe3; reflexivity); auto.
  rewrite app_nil_r. unfold f. destruct (sb x); reflexivity.
Qed.

(* structural equality (used where the implementation compares sympy trees) *)
Definition fn1_eqb (f g : fn1) : bool :=
  match f, g with
  | Fexp, Fexp | Fcos, Fcos | Fsin, Fsin | Ftan, Ftan | Facos, Facos | Fasin, Fasin
  | Fatan, Fatan | Flog, Flog | Fsqrt, Fsqrt | Fabs, Fabs | Ffloor, Ffloor => true
  | _, _ => false
  end.
Definition relop_eqb (f g : relop) : bool :=
  match f, g with
  | Rlt, Rlt | Rgt, Rgt | Rle, Rle | Rge, Rge | Req, Req | Rne, Rne => true
  | _, _ => false
  end.
Definition Q_eqb_syn (p q : Q) : bool :=
  Z.eqb (Qnum p) (Qnum q) && Pos.eqb (Qden p) (Qden q).

Lemma Q_eqb_syn_eq p q : Q_eqb_syn p q = true -> p = q.
Proof.
  destruct p, q. unfold Q_eqb_syn. simpl. intros H.
  apply andb_true_iff in H as [H1 H2]. apply Z.eqb_eq in H1. apply Pos.eqb_eq in H2. congruence.
Qed.

Lemma Q_eqb_syn_refl q : Q_eqb_syn q q = true.
Proof. unfold Q_eqb_syn. rewrite Z.eqb_refl, Pos.eqb_refl. reflexivity. Qed.

Fixpoint expr_eqb (e1 e2 : expr) : bool :=
  match e1, e2 with
  | ENum p i, ENum q j => Q_eqb_syn p q && Bool.eqb i j
  | EVar x, EVar y => String.eqb x y
  | EPi, EPi => true
  | EAdd a b, EAdd c d | ESub a b, ESub c d | EMul a b, EMul c d | EDiv a b, EDiv c d
  | EPow a b, EPow c d | EMod a b, EMod c d | EAnd a b, EAnd c d | EOr a b, EOr c d =>
      expr_eqb a c && expr_eqb b d
  | ENeg a, ENeg c | ENot a, ENot c => expr_eqb a c
  | EFn f a, EFn g c => fn1_eqb f g && expr_eqb a c
  | ERel r a b, ERel s c d => relop_eqb r s && expr_eqb a c && expr_eqb b d
  | ECond a b c, ECond d e f => expr_eqb a d && expr_eqb b e && expr_eqb c f
  | _, _ => false
  end.

(* off the diagonal H reads false = true; [discriminate] allocates three times as much there *)
Lemma fn1_eqb_eq f g : fn1_eqb f g = true -> f = g.
Proof. case f; case g; intros H; try reflexivity; case (diff_false_true H). Qed.

Lemma relop_eqb_eq r s : relop_eqb r s = true -> r = s.
Proof. case r; case s; intros H; try reflexivity; case (diff_false_true H). Qed.

Lemma expr_eqb_eq e1 e2 : expr_eqb e1 e2 = true -> e1 = e2.
Proof.
  (* the 240 pairs of distinct constructors go as in fn1_eqb_eq *)
  revert e2; induction e1; intros e2; case e2; intros * H;
    try (case (diff_false_true H)); cbn [expr_eqb] in H;
    repeat (apply andb_prop in H; destruct H as [H ?]); f_equal;
    auto using Bool.eqb_prop, fn1_eqb_eq, relop_eqb_eq.
  - apply Q_eqb_syn_eq, andb_true_intro. auto.   (* the splitting went through Q_eqb_syn *)
  - apply String.eqb_eq, H.
Qed.

Lemma expr_eqb_refl e : expr_eqb e e = true.
Proof.
  induction e; simpl; rewrite ?IHe, ?IHe1, ?IHe2, ?IHe3; try reflexivity.
  - rewrite Q_eqb_syn_refl. destruct int_lit; reflexivity.
  - apply String.eqb_refl.
  - destruct f; reflexivity.
  - destruct r; reflexivity.
Qed.

