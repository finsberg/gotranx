(* Save.v — block structure of the .ode writer (save.py, codegen/ode.py: print_states,
   print_parameters, print_assignments): atoms are grouped by their component tuple in a dict
   (first-appearance order of the name-sorted atoms), one block per group; the group without a
   component is written without header and first among the expression blocks (repaired behaviour, fix for C11:
   /repo 5b91262). *)
From GX Require Import Base Ode Load LoadSound.
From Coq Require Import Permutation.

Section Group.
  Context {A : Type} (key : A -> list string).

  Fixpoint insert_group (k : list string) (a : A) (g : list (list string * list A)) : list (list string * list A) :=
    match g with
    | [] => [(k, [a])]
    | (k', l) :: g' => if list_str_eqb k k' then (k', l ++ [a]) :: g' else (k', l) :: insert_group k a g'
    end.

  Definition group_by (l : list A) : list (list string * list A) :=
    fold_left (fun g a => insert_group (key a) a g) l [].

  Lemma insert_group_perm k a g :
    Permutation (flat_map snd (insert_group k a g)) (flat_map snd g ++ [a]).
  Proof.
    induction g as [|[k' l] g IH]; simpl; [reflexivity|].
    destruct (list_str_eqb k k'); simpl.
    - rewrite <- !app_assoc. apply Permutation_app_head. apply Permutation_app_comm.
    - rewrite <- app_assoc. apply Permutation_app_head. exact IH.
  Qed.

  (* grouping loses and invents nothing *)
  Theorem group_by_perm l : Permutation (flat_map snd (group_by l)) l.
  Proof.
    apply (fold_left_prefix_inv _ (fun pre g => Permutation (flat_map snd g) pre)); [reflexivity|].
    intros pre a _ g _ H. eapply Permutation_trans; [apply insert_group_perm|]. apply Permutation_app_tail, H.
  Qed.

  Definition keyed (g : list (list string * list A)) : Prop :=
    forall k l a, In (k, l) g -> In a l -> key a = k.

  Lemma keyed_Forall g : keyed g <-> Forall (fun kl => Forall (fun a => key a = fst kl) (snd kl)) g.
  Proof.
    split.
    - intros H. apply Forall_forall. intros [k l] Hin. apply Forall_forall. intros a. exact (H k l a Hin).
    - intros H k l a Hin Ha. eapply Forall_forall in H; [|exact Hin]. eapply Forall_forall in H; [exact H|exact Ha].
  Qed.

  Lemma insert_group_keyed a g : keyed g -> keyed (insert_group (key a) a g).
  Proof.
    intros H. apply keyed_Forall. apply keyed_Forall in H.
    induction H as [|[k l] g Hl Hg IH]; simpl; [repeat constructor|].
    destruct (list_str_eqb (key a) k) eqn:E; constructor; auto.
    apply Forall_app. split; [exact Hl|]. constructor; [apply list_str_eqb_eq, E|constructor].
  Qed.

  (* every atom is written in the block of its own component tuple *)
  Theorem group_by_keyed l : keyed (group_by l).
  Proof.
    apply (fold_left_prefix_inv _ (fun _ g => keyed g)); [intros k l0 a []|].
    intros pre a _ g _. apply insert_group_keyed.
  Qed.
End Group.

(* print_assignments writes the groups in the order sorted(d.items(), key=lambda item: item[0] != ("",)), a stable
   sort: the group without a component first, the others as they stand (repaired behaviour, fix for C11) *)
Definition is_unnamed (k : list string) : bool := list_str_eqb k [""].
Definition unnamed_first {A} (g : list (list string * list A)) : list (list string * list A) :=
  filter (fun kl => is_unnamed (fst kl)) g ++ filter (fun kl => negb (is_unnamed (fst kl))) g.

Lemma unnamed_first_perm {A} (g : list (list string * list A)) : Permutation (unnamed_first g) g.
Proof.
  unfold unnamed_first. induction g as [|x g IH]; simpl; [reflexivity|].
  destruct (is_unnamed (fst x)); simpl.
  - apply perm_skip. exact IH.
  - eapply Permutation_trans; [apply Permutation_sym, Permutation_middle|]. apply perm_skip. exact IH.
Qed.

(* what the order is for: header-less assignments behind a headed block would be read as part of that block *)
Theorem unnamed_never_after_named {A} (g : list (list string * list A)) l1 x l2 :
  unnamed_first g = l1 ++ x :: l2 -> is_unnamed (fst x) = true ->
  forall y, In y l1 -> is_unnamed (fst y) = true.
Proof.
  unfold unnamed_first. intros E Hx y Hy. apply app_eq_app in E. destruct E as (l & [[E _]|[_ E]]).
  - assert (H : In y (filter (fun kl => is_unnamed (fst kl)) g)) by (rewrite E; apply in_or_app; left; exact Hy).
    apply filter_In in H. apply H.
  - (* x would be among the named blocks *)
    assert (H : In x (filter (fun kl => negb (is_unnamed (fst kl))) g)) by (rewrite E; apply in_or_app; right; left; reflexivity).
    apply filter_In in H. rewrite Hx in H. destruct H as [_ [=]].
Qed.

Definition entry_of_decl (d : decl) : entry :=
  {| en_name := d_name d; en_value := d_value d; en_unit := d_unit d; en_desc := d_desc d |}.
Definition line_of_assign (a : assign) : line :=
  {| ln_name := a_name a; ln_expr := a_expr a; ln_unit := a_unit a; ln_comment := a_comment a |}.

Definition save_items (states params : list decl) (assigns : list assign) : list item :=
  map (fun kl => IStates (fst kl) (map entry_of_decl (snd kl))) (group_by d_comps states)
  ++ map (fun kl => IParams (fst kl) (map entry_of_decl (snd kl))) (group_by d_comps params)
  ++ map (fun kl => IExprs (fst kl) (map line_of_assign (snd kl))) (unnamed_first (group_by a_comps assigns)).
