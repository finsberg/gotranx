(* Topo.v — executable mirror of CPython's graphlib.TopologicalSorter as gotranx drives it
   (ode.py: sort_assignments):   sorter.add(name, *deps) for each assignment, then
   tuple(sorter.static_order()).  The order graphlib returns is generation by generation
   (Kahn), ties broken by the insertion order of its _node2info dict and of each successor list;
   both are made explicit here, because they decide gotranx's slot layout.
   After it is_topological, a checker for "definition before use", with the lemmas that say what it accepts. *)
From GX Require Import Base.
From Coq Require Import BinInt.
Open Scope string_scope.
Open Scope list_scope.
Open Scope Z_scope.

Record ninfo := { npred : Z; succs : list string }.
Definition graph := list (string * ninfo).   (* in dict insertion order *)

Fixpoint g_update (g : graph) (n : string) (f : ninfo -> ninfo) : graph :=
  match g with
  | [] => []
  | (m, i) :: g' => if String.eqb n m then (m, f i) :: g' else (m, i) :: g_update g' n f
  end.

(* TopologicalSorter._get_nodeinfo *)
Definition g_touch (g : graph) (n : string) : graph :=
  match lookup n g with
  | Some _ => g
  | None => (g ++ [(n, {| npred := 0; succs := [] |})])%list
  end.

(* TopologicalSorter.add(node, *predecessors) *)
Definition g_add (g : graph) (node : string) (preds : list string) : graph :=
  let g1 := g_touch g node in
  let g2 := g_update g1 node
              (fun i => {| npred := npred i + Z.of_nat (length preds); succs := succs i |}) in
  fold_left
    (fun g p => g_update (g_touch g p) p
                  (fun i => {| npred := npred i; succs := (succs i ++ [node])%list |}))
    preds g2.

(* TopologicalSorter.done(node): decrement every successor, collect those reaching 0 *)
Definition done_succ (st : graph * list string) (s : string) : graph * list string :=
  let '(g, ready) := st in
  let g' := g_update g s (fun j => {| npred := npred j - 1; succs := succs j |}) in
  match lookup s g' with
  | Some j => if npred j =? 0 then (g', (ready ++ [s])%list) else (g', ready)
  | None => (g', ready)
  end.

Definition done_one (st : graph * list string) (node : string) : graph * list string :=
  match lookup node (fst st) with
  | None => st
  | Some i => fold_left done_succ (succs i) st
  end.

Definition done_all (g : graph) (nodes : list string) : graph * list string :=
  fold_left done_one nodes (g, []).

(* static_order's loop:  while is_active: group = get_ready(); yield from group; done( *group ) *)
Fixpoint kahn (fuel : nat) (g : graph) (ready out : list string) : option (list string) :=
  match ready with
  | [] => Some out
  | _ :: _ =>
      match fuel with
      | O => None
      | S f => let '(g', ready') := done_all g ready in kahn f g' ready' (out ++ ready)%list
      end
  end.

Definition ready0 (g : graph) : list string :=
  map fst (filter (fun ni => npred (snd ni) =? 0) g).

(* None = graphlib.CycleError (prepare() raises iff some cycle exists, i.e. iff Kahn's
   algorithm cannot emit every node) *)
Definition static_order (g : graph) : option (list string) :=
  match kahn (S (length g)) g (ready0 g) [] with
  | Some out => if Nat.eqb (length out) (length g) then Some out else None
  | None => None
  end.

(* [deps n] = names n reads; [nodes] = the names that must be ordered.  The order is accepted
   iff every node occurs exactly once, nothing else occurs, and every dependency of a node that
   is itself a node occurs strictly earlier. *)
Fixpoint topo_ok_aux (deps : string -> list string) (nodes seen rest : list string) : bool :=
  match rest with
  | [] => true
  | n :: rest' =>
      mem n nodes && negb (mem n seen)
      && forallb (fun d => negb (mem d nodes) || mem d seen) (deps n)
      && topo_ok_aux deps nodes (n :: seen) rest'
  end.

Definition is_topological (deps : string -> list string) (nodes ord : list string) : bool :=
  topo_ok_aux deps nodes [] ord && Nat.eqb (length ord) (length (dedup nodes)).

Close Scope Z_scope.

Lemma topo_ok_aux_cons deps nodes seen n rest :
  topo_ok_aux deps nodes seen (n :: rest) = true ->
  In n nodes /\ ~ In n seen /\ (forall d, In d (deps n) -> In d nodes -> In d seen)
  /\ topo_ok_aux deps nodes (n :: seen) rest = true.
Proof.
  cbn [topo_ok_aux]. intros H.
  apply andb_true_iff in H. destruct H as [H H4]. apply andb_true_iff in H. destruct H as [H H3].
  apply andb_true_iff in H. destruct H as [H1 H2].
  split; [apply mem_In, H1|]. split; [apply mem_false_In, negb_true_iff, H2|]. split; [|exact H4].
  intros d Hd Hn. rewrite forallb_forall in H3. specialize (H3 d Hd).
  apply mem_In in Hn. rewrite Hn in H3. apply mem_In, H3.
Qed.

Lemma topo_ok_aux_spec deps nodes seen rest :
  topo_ok_aux deps nodes seen rest = true ->
  forall pre n post, rest = (pre ++ n :: post) ->
    In n nodes /\ ~ In n seen /\ ~ In n pre /\
    (forall d, In d (deps n) -> In d nodes -> In d seen \/ In d pre).
Proof.
  intros H pre n post ->. revert seen H.
  induction pre as [|p pre IH]; intros seen H; apply topo_ok_aux_cons in H; destruct H as (H1 & H2 & H3 & H4).
  - split; [exact H1|]. split; [exact H2|]. split; [intros []|]. intros d Hd Hn. left. exact (H3 d Hd Hn).
  - destruct (IH _ H4) as (Hn & Hs & Hp & Hd).
    split; [exact Hn|]. split; [intros Hc; apply Hs; right; exact Hc|]. split.
    + intros [->|Hc]; [apply Hs; left; reflexivity|exact (Hp Hc)].
    + intros d Hdd Hdn.
      destruct (Hd d Hdd Hdn) as [[->|Hc]|Hc]; [right; left; reflexivity|left; exact Hc|right; right; exact Hc].
Qed.

Lemma topo_ok_aux_NoDup deps nodes seen rest :
  topo_ok_aux deps nodes seen rest = true -> NoDup rest /\ forall n, In n rest -> In n nodes /\ ~ In n seen.
Proof.
  revert seen; induction rest as [|m rest IH]; intros seen H; [split; [constructor | intros n []]|].
  apply topo_ok_aux_cons in H. destruct H as (H1 & H2 & _ & H4). destruct (IH _ H4) as [Hnd Hin]. split.
  - constructor; [|exact Hnd]. intros Hc. apply Hin in Hc. apply (proj2 Hc). left; reflexivity.
  - intros n [<-|Hn]; [split; assumption|].
    destruct (Hin n Hn) as [Hn1 Hn2]. split; [exact Hn1|]. intros Hc. apply Hn2. right; exact Hc.
Qed.

Lemma is_topological_complete deps nodes ord :
  is_topological deps nodes ord = true -> forall n, In n nodes -> In n ord.
Proof.
  intros H. apply andb_true_iff in H. destruct H as [H1 H2].
  apply Nat.eqb_eq in H2. destruct (topo_ok_aux_NoDup _ _ _ _ H1) as [Hnd Hin].
  intros n Hn. apply dedup_In in Hn.
  apply (NoDup_length_incl Hnd (l' := dedup nodes)); [rewrite H2; apply le_n| |exact Hn].
  intros x Hx. apply dedup_In, Hin, Hx.
Qed.
