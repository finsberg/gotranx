(* SaveLoad.v — saving a loaded model and loading it back gives the same model (C11, for the mirror):
   the writer groups the atoms by their component tuple, one block per group; the insertions the
   loader performs for those blocks are, as a set, the insertions it performed for the original
   text, and the loader's result depends only on that set (LoadPerm.load_set). *)
From GX Require Import Base Ode Codegen Load LoadSound Perm LoadPerm Save.
From Coq Require Import Permutation.

Lemma decl_of_entry d : decl_of (d_comps d) (entry_of_decl d) = d.
Proof. destruct d; reflexivity. Qed.
Lemma assign_of_line a : assign_of (a_comps a) (line_of_assign a) = a.
Proof. destruct a; reflexivity. Qed.

Lemma in_block {B} (mk : B -> op) (comps : list string) (bs : list B) n o :
  In (n, o) (flat_map (fun b => map (fun n => (n, mk b)) comps) bs) <-> In n comps /\ exists b, In b bs /\ o = mk b.
Proof.
  rewrite in_flat_map. split.
  - intros (b & Hb & H). apply in_map_iff in H. destruct H as (m & [= <- <-] & Hm). eauto.
  - intros (Hn & b & Hb & ->). exists b. split; [exact Hb|]. apply in_map_iff. eauto.
Qed.

(* what an item inserts ([ops] is the flat_map of it): every entry of the block into every component of its tuple *)
Lemma ops_of_item_In it n o :
  In (n, o) (ops_of_item it) <->
  match it with
  | IStates comps es => In n comps /\ exists e, In e es /\ o = OS (decl_of comps e)
  | IParams comps es => In n comps /\ exists e, In e es /\ o = OP (decl_of comps e)
  | IExprs comps ls => In n comps /\ exists l, In l ls /\ o = OA (assign_of comps l)
  | IComment _ => False
  end.
Proof. destruct it; [apply in_block..|reflexivity]. Qed.

Definition op_comps (o : op) : list string :=
  match o with OS d | OP d => d_comps d | OA a => a_comps a end.

Lemma ops_closed items m o :
  In (m, o) (ops items) -> In m (op_comps o) /\ forall n, In n (op_comps o) -> In (n, o) (ops items).
Proof.
  intros H. apply in_flat_map in H. destruct H as (it & Hit & H).
  (* the block that inserts o inserts it into every component of the block's tuple, which is o's own *)
  assert (Hblock : In m (op_comps o) /\ forall n, In n (op_comps o) -> In (n, o) (ops_of_item it)).
  { apply ops_of_item_In in H. destruct it as [comps es|comps es|comps ls|s]; [| | |destruct H].
    all: destruct H as (Hm & b & Hb & ->); split; [exact Hm|].
    all: intros n Hn; apply (ops_of_item_In _ n); split; [exact Hn|exists b; auto]. }
  split; [apply Hblock|]. intros n Hn. apply in_flat_map. exists it. split; [exact Hit|apply Hblock, Hn].
Qed.

Section Blocks.
  Context {A B : Type} (key : A -> list string) (e : A -> B) (mkI : list string -> list B -> item)
          (K : A -> op) (mk : list string -> B -> A).
  Hypothesis HI : forall k bs, ops_of_item (mkI k bs) = flat_map (fun b => map (fun n => (n, K (mk k b))) k) bs.
  Hypothesis HO : forall x, mk (key x) (e x) = x.

  (* one block per group, every atom in the group of its own tuple: each atom goes exactly where its tuple says *)
  Lemma ops_blocks g l n o :
    Save.keyed key g -> Permutation (flat_map snd g) l ->
    (In (n, o) (ops (map (fun kl => mkI (fst kl) (map e (snd kl))) g)) <-> exists x, o = K x /\ In x l /\ In n (key x)).
  Proof.
    intros Kg Hperm. unfold ops. rewrite flat_map_concat_map, map_map, <- flat_map_concat_map, in_flat_map. split.
    - intros ([k xs] & Hg & H). rewrite HI in H. apply in_block in H. simpl in H. destruct H as (Hn & b & Hb & ->).
      apply in_map_iff in Hb. destruct Hb as (x & <- & Hx). pose proof (Kg k xs x Hg Hx) as E. subst k. rewrite HO.
      exists x. split; [reflexivity|]. split; [|exact Hn]. apply (Permutation_in _ Hperm), in_flat_map. exists (key x, xs). auto.
    - intros (x & -> & Hx & Hn). apply (Permutation_in _ (Permutation_sym Hperm)), in_flat_map in Hx.
      destruct Hx as ([k xs] & Hg & Hx). exists (k, xs). split; [exact Hg|]. rewrite HI. apply in_block. simpl in *.
      pose proof (Kg k xs x Hg Hx) as E. subst k. split; [exact Hn|]. exists (e x). split; [apply in_map, Hx|rewrite HO; reflexivity].
  Qed.
End Blocks.

Lemma ops_save S P A n o :
  In (n, o) (ops (save_items S P A)) <->
  (exists d, o = OS d /\ In d S /\ In n (d_comps d))
  \/ (exists d, o = OP d /\ In d P /\ In n (d_comps d))
  \/ (exists a, o = OA a /\ In a A /\ In n (a_comps a)).
Proof.
  unfold save_items, ops. rewrite !flat_map_app. apply in_app_iff2; [|apply in_app_iff2].
  - apply (ops_blocks d_comps entry_of_decl IStates OS decl_of (fun _ _ => eq_refl) decl_of_entry);
      [apply group_by_keyed|apply group_by_perm].
  - apply (ops_blocks d_comps entry_of_decl IParams OP decl_of (fun _ _ => eq_refl) decl_of_entry);
      [apply group_by_keyed|apply group_by_perm].
  - apply (ops_blocks a_comps line_of_assign IExprs OA assign_of (fun _ _ => eq_refl) assign_of_line).
    + intros k l a H. apply (group_by_keyed a_comps A), (Permutation_in _ (unnamed_first_perm _)), H.
    + rewrite (Permutation_flat_map _ (unnamed_first_perm _)). apply group_by_perm.
Qed.

Section Loaded.
  Variable l : list (string * op).
  Variable cs : list comp.
  Hypothesis Hrun : run_ops [] l = Ok cs.

  Lemma loaded_op o : op_in_ode o (ode_of cs) <-> exists n, In (n, o) l.
  Proof.
    pose proof (run_ops_char l) as R. rewrite Hrun in R. destruct R as [(Hnd & Hnames & F) _].
    rewrite ode_of_op. split.
    - intros (c & Hc & H). exists (c_name c). rewrite <- (getc_own_name cs c Hnd Hc) in H. apply F, proj_In in H. exact H.
    - intros (n & H). exists (getc cs n). split; [apply getc_listed, Hnames, (in_map fst _ _ H)|apply F, proj_In, H].
  Qed.

  Lemma loaded_states d : In d (o_states (ode_of cs)) <-> exists n, In (n, OS d) l.
  Proof. exact (loaded_op (OS d)). Qed.

  Lemma loaded_params d : In d (o_params (ode_of cs)) <-> exists n, In (n, OP d) l.
  Proof. exact (loaded_op (OP d)). Qed.

  Lemma loaded_assigns a : In a (assigns (ode_of cs)) <-> exists n, In (n, OA a) l.
  Proof. exact (loaded_op (OA a)). Qed.
End Loaded.

(* C11 for the mirror, in whatever order the writer lists the atoms (ode.py: ODE.states, .parameters, .intermediates and
   .state_derivatives sort them by name) *)
Theorem save_then_load_gen items o S P A :
  load items = Ok o ->
  same_set S (o_states o) -> same_set P (o_params o) -> same_set A (assigns o) ->
  exists o', load (save_items S P A) = Ok o' /\ ode_equiv o o'.
Proof.
  (* the loader depends on the set of insertions only (load_set), and the saved blocks insert what the text did:
     an atom is in the loaded model iff the text inserts it somewhere (L), and an insertion goes into every component
     of its atom (ops_closed), which is where the saved blocks put it (ops_save) *)
  intros HL HS HP HA. apply (load_set items); [|exact HL].
  apply load_iff in HL. destruct HL as (cs & HL & ->). apply load_comps_iff, proj1 in HL. rewrite transform_run in HL.
  assert (L : forall o, (exists m, In (m, o) (ops items)) <-> op_among o S P A).
  { intros o. rewrite <- (loaded_op _ cs HL). destruct o; simpl; symmetry; [apply HS|apply HP|apply HA]. }
  intros [n o]. rewrite ops_save. split.
  - intros H. pose proof (proj1 (ops_closed _ _ _ H)) as Hn. pose proof (proj1 (L o) (ex_intro _ n H)) as Ho.
    destruct o; [left|right; left|right; right]; eauto.
  - assert (Hback : forall o, op_among o S P A -> In n (op_comps o) -> In (n, o) (ops items)).
    { intros o' Ho Hn. apply L in Ho. destruct Ho as [m Hm]. exact (proj2 (ops_closed _ _ _ Hm) n Hn). }
    intros [(d & -> & Hd & Hn)|[(d & -> & Hd & Hn)|(a & -> & Hd & Hn)]].
    + apply (Hback (OS d)); assumption.
    + apply (Hback (OP d)); assumption.
    + apply (Hback (OA a)); assumption.
Qed.

Theorem save_then_load items o :
  load items = Ok o ->
  exists o', load (save_items (o_states o) (o_params o) (assigns o)) = Ok o' /\ ode_equiv o o'.
Proof. intros HL. apply (save_then_load_gen items o); [exact HL| | |]; intros x; tauto. Qed.

Theorem save_then_load_same_code items o :
  load items = Ok o ->
  exists o', load (save_items (o_states o) (o_params o) (assigns o)) = Ok o'
    /\ ode_equiv o o'
    /\ (forall ru, sorted_names o ru = sorted_names o' ru)
    /\ sorted_states o = sorted_states o'
    /\ param_names o = param_names o'
    /\ (forall ru order, gen_rhs o ru order = gen_rhs o' ru order)
    /\ (forall ru order, gen_monitor o ru order = gen_monitor o' ru order)
    /\ (forall ru name order, gen_euler o ru name order = gen_euler o' ru name order).
Proof.
  intros HL. destruct (save_then_load items o HL) as (o' & E & HE).
  destruct (same_code o o' HE (load_unique_assign_names items o HL)) as (H1 & H2 & H3 & _ & H4).
  exists o'. exact (conj E (conj HE (conj H1 (conj H2 (conj H3 H4))))).
Qed.

Print Assumptions save_then_load_same_code.
