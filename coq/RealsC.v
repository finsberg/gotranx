(* RealsC.v — the real-number carrier (standard library reals, classical) and what the properties ask of it:
   the seven equations of Schemes.FieldLaws (which the Rush-Larsen theorems use) hold, a passed guard excludes
   division by zero, the step is exact for rates affine in their own state (C06); IZR is an embedding of int
   in the sense of Cback (C02); the selection laws of Singular hold (C16); and C's fmod over the reals, for CMod.v. *)
From Coq Require Import Reals QArith Lra.
From GX Require Import Expr Schemes Cback Singular.
Close Scope Q_scope.
Open Scope R_scope.

Definition r_b (b : bool) : R := if b then 1 else 0.
Definition r_nz (a : R) : bool := if Req_EM_T a 0 then false else true.
Definition r_lt (a b : R) : bool := if Rlt_dec a b then true else false.
Definition r_le (a b : R) : bool := if Rle_dec a b then true else false.
Definition r_eq (a b : R) : bool := if Req_EM_T a b then true else false.

Definition r_floor (a : R) : R := IZR (Int_part a).

Definition ROps : NumOps R := {|
  ofQ := Q2R;
  cpi := PI;
  add := Rplus; sub := Rminus; mul := Rmult; div := Rdiv;
  pow := Rpower;          (* a^b = exp(b ln a): the meaning for a > 0 *)
  neg := Ropp;
  fn := fun f a => match f with
                   | Fexp => exp a | Fcos => cos a | Fsin => sin a | Ftan => tan a
                   | Facos => acos a | Fasin => asin a | Fatan => atan a
                   | Flog => ln a | Fsqrt => sqrt a | Fabs => Rabs a | Ffloor => r_floor a
                   end;
  fmod := fun a b => a - b * r_floor (a / b);
  rel := fun r a b => r_b (match r with
                           | Rlt => r_lt a b | Rgt => r_lt b a | Rle => r_le a b | Rge => r_le b a
                           | Req => r_eq a b | Rne => negb (r_eq a b) end);
  bnot := fun a => r_b (negb (r_nz a));
  band := fun a b => r_b (r_nz a && r_nz b);
  bor := fun a b => r_b (r_nz a || r_nz b);
  select := fun c a b => if r_nz c then a else b |}.

Lemma Q2R_inject_Z z : Q2R (inject_Z z) = IZR z.
Proof. unfold Q2R, inject_Z. simpl. lra. Qed.

Lemma Q2R_0 : Q2R 0 = 0.
Proof. exact (Q2R_inject_Z 0). Qed.

Lemma Q2R_1 : Q2R 1 = 1.
Proof. exact (Q2R_inject_Z 1). Qed.

Lemma r_b_cases b : r_b b = 1 \/ r_b b = 0.
Proof. destruct b; auto. Qed.

Lemma r_nz_b b : r_nz (r_b b) = b.
Proof. destruct b; unfold r_nz, r_b; destruct (Req_EM_T _ 0); auto; exfalso; lra. Qed.

Lemma r_lt_iff a b : r_lt a b = true <-> a < b.
Proof. unfold r_lt. destruct (Rlt_dec a b); split; auto; discriminate. Qed.

Theorem ROps_field : FieldLaws ROps.
Proof.
  constructor; simpl; intros.
  - apply Rplus_comm.
  - apply Rmult_comm.
  - unfold Rdiv. rewrite !Rmult_assoc. f_equal. apply Rmult_comm.
  - unfold Rdiv. rewrite Rmult_assoc. f_equal. apply Rmult_comm.
  - rewrite orb_comm. reflexivity.
  - rewrite Q2R_0. apply Ropp_0.
  - rewrite !r_nz_b. f_equal. apply eq_true_iff_eq. rewrite orb_true_iff, !r_lt_iff.
    unfold Rabs. destruct (Rcase_abs g); lra.
Qed.

Lemma guard_excludes_zero (g delta : R) :
  0 <= delta -> r_nz (rel ROps Rgt (Rabs g) delta) = true -> g <> 0.
Proof.
  simpl. rewrite r_nz_b. intros Hd H%r_lt_iff ->. rewrite Rabs_R0 in H. lra.
Qed.

Lemma guarded_slot_value (delta : Q) (sv fv gv dtv : R) :
  slot_value ROps MGuard delta sv fv gv dtv =
  if Rlt_dec (Q2R delta) (Rabs gv)
  then sv + fv / gv * (exp (gv * dtv) - Q2R 1)
  else sv + dtv * fv.
Proof.
  simpl. rewrite r_nz_b. unfold r_lt.
  destruct (Rlt_dec (Q2R delta) (Rabs gv)); reflexivity.
Qed.

(* exact for rates affine in their own state: if f = a*x + b with a <> 0 then g = a and
   x + (f/g)(exp(g dt) - 1) is the solution (x + b/a) exp(a dt) - b/a of x' = a x + b at time dt *)
Lemma rl_exact_for_affine (a b x dt : R) :
  a <> 0 ->
  x + (a * x + b) / a * (exp (a * dt) - 1) = (x + b / a) * exp (a * dt) - b / a.
Proof.
  intros Ha. rewrite Rdiv_plus_distr.
  replace (a * x / a) with x by (symmetry; apply Rinv_r_simpl_m, Ha).
  ring.
Qed.

Lemma guarded_slot_euler_when_small (delta : Q) (sv fv gv dtv : R) :
  Rabs gv <= Q2R delta ->
  slot_value ROps MGuard delta sv fv gv dtv = sv + dtv * fv.
Proof.
  intros H. rewrite guarded_slot_value. destruct (Rlt_dec (Q2R delta) (Rabs gv)); [lra|reflexivity].
Qed.

(* C02: int -> double over the reals *)
Theorem R_int_embedding : IntEmbedding ROps IZR.
Proof.
  constructor; simpl; intros.
  - symmetry. apply Q2R_inject_Z.
  - apply plus_IZR.
  - apply minus_IZR.
  - apply mult_IZR.
  - apply opp_IZR.
Qed.

(* C's fmod over the reals: a - b * trunc(a / b) *)
Definition r_trunc (a : R) : R := if Rle_dec 0 a then r_floor a else - r_floor (- a).
Definition r_cfmod (a b : R) : R := a - b * r_trunc (a / b).

(* C16: select / rel laws over the reals *)
Theorem ROps_sel : SelLaws ROps.
Proof.
  constructor; unfold oneT, zero; simpl; intros; rewrite ?Q2R_1, ?Q2R_0.
  - rewrite (r_nz_b true : r_nz 1 = true). reflexivity.
  - rewrite (r_nz_b false : r_nz 0 = false). reflexivity.
  - apply r_b_cases.
Qed.
