(* Line.v — one assignment line of an expressions block, from its characters:

       VARIABLE "=" expression [ "#" rest-of-line ]            (ode.lark: assignment, comment)

   [parse_line] cuts the line at the first "#", the code in front of it at the first "=", reads the left part as one
   name and the right part with Lex.lex / Parse.parse_expr.  No token of an expression contains "#" or "=" (relations
   are written Eq(a, b), Le(a, b), ...), so on a line that holds one assignment both cuts are where the grammar puts
   them.  [comment_is_inert] (C17): the name and the expression do not depend on the comment text; [parse_written_line]
   (C11): the line the printer writes for (name, expression, comment) is read back as that triple.  [parse_block] reads the lines
   of a block body, comment lines and blank lines skipped; [logical] first joins the physical lines of a statement
   broken inside parentheses or behind an operator ([parse_body]).

   What is modelled is one assignment per logical line, the layout that gotranx's own writer and the texts the harness
   generates produce.  It is not every layout Lark accepts: ode.lark makes the NEWLINE behind an assignment optional
   and ignores white space, line feeds included, wherever the parser expects no NEWLINE token, so that it also reads,
   for one, two assignments on one physical line; such texts are outside this model. *)
From GX Require Import Base Expr Parse Lex.
From Coq Require Import QArith_base Ascii.
Open Scope list_scope.
Open Scope string_scope.
Open Scope nat_scope.

Fixpoint cut_at (k : N) (s : string) : string * option string :=
  match s with
  | EmptyString => (EmptyString, None)
  | String c r => if (code c =? k)%N then (EmptyString, Some r)
                  else let (a, b) := cut_at k r in (String c a, b)
  end.

Definition hash : N := 35.
Definition equals : N := 61.

Definition parse_line (s : string) : option (string * expr * option string) :=
  let (codepart, cm) := cut_at hash s in
  match cut_at equals codepart with
  | (l, Some r) =>
      match lex l, parse_string r with
      | Some [TId x], Some e => if is_keyword x then None else Some (x, e, cm)
      | _, _ => None
      end
  | (_, None) => None
  end.

Definition free_of (k : N) (s : string) : bool := all_chars (fun c => negb (code c =? k)%N) s.

Lemma cut_at_free k s h r : (code h =? k)%N = true -> free_of k s = true -> cut_at k (s ++ String h r) = (s, Some r).
Proof.
  intros Hh H. induction s as [|c s IH]; cbn [append cut_at].
  - rewrite Hh. reflexivity.
  - apply andb_prop in H as [Hc Hs].
    destruct (code c =? k)%N; [discriminate|]. rewrite (IH Hs). reflexivity.
Qed.

Lemma cut_at_none k s : free_of k s = true -> cut_at k s = (s, None).
Proof.
  induction s as [|c s IH]; cbn [cut_at]; intros H; [reflexivity|].
  apply andb_prop in H as [Hc Hs].
  destruct (code c =? k)%N; [discriminate|]. rewrite (IH Hs). reflexivity.
Qed.

Theorem comment_is_inert codepart c :
  free_of hash codepart = true ->
  parse_line (codepart ++ String "#" c)
  = match parse_line codepart with
    | Some (x, e, _) => Some (x, e, Some c)
    | None => None
    end.
Proof.
  intros H. unfold parse_line.
  rewrite (cut_at_free hash codepart "#" c eq_refl H), (cut_at_none hash codepart H).
  destruct (cut_at equals codepart) as [l [r|]]; [|reflexivity].
  destruct (lex l) as [[|[q i|x| | | | | | | |] ts]|]; try reflexivity.
  destruct ts; [|reflexivity]. destruct (parse_string r); [|reflexivity]. destruct (is_keyword x); reflexivity.
Qed.

Corollary line_comment_text_is_irrelevant codepart c1 c2 :
  free_of hash codepart = true ->
  match parse_line (codepart ++ String "#" c1), parse_line (codepart ++ String "#" c2) with
  | Some (x1, e1, _), Some (x2, e2, _) => x1 = x2 /\ e1 = e2
  | None, None => True
  | _, _ => False
  end.
Proof.
  intros H. rewrite (comment_is_inert codepart c1 H), (comment_is_inert codepart c2 H).
  destruct (parse_line codepart) as [[[x e] cm]|]; [split; reflexivity|exact I].
Qed.

Definition plain (c : ascii) : bool := negb (code c =? hash)%N && negb (code c =? equals)%N.

Lemma idchar_plain c : is_id_char c = true -> plain c = true.
Proof.
  unfold is_id_char, is_id_start, is_digit, plain. intros H.
  (* at the code of "#" and at that of "=" the hypothesis computes to false = true *)
  destruct (N.eqb_spec (code c) hash) as [E|_]; [rewrite E in H; discriminate H|].
  destruct (N.eqb_spec (code c) equals) as [E|_]; [rewrite E in H; discriminate H|]. reflexivity.
Qed.
Lemma digit_plain c : is_digit c = true -> plain c = true.
Proof. intros H. apply idchar_plain. unfold is_id_char. rewrite H. apply orb_true_r. Qed.

Lemma render_tok_plain t : good t = true -> all_chars plain (render_tok t) = true.
Proof.
  destruct t as [n|m e|s|t]; cbn [good render_tok]; intros H.
  - apply (all_chars_impl is_digit); [exact digit_plain|apply str_of_N_digits].
  - rewrite !all_chars_app. rewrite (all_chars_impl is_digit plain _ digit_plain (str_of_N_digits m)).
    rewrite (all_chars_impl is_digit plain _ digit_plain (str_of_N_digits e)). reflexivity.
  - apply (all_chars_impl is_id_char); [exact idchar_plain|apply good_id_chars; exact H].
  - destruct t; try discriminate; reflexivity.
Qed.

Lemma render_plain l : Forall (fun t => good t = true) l -> all_chars plain (render l) = true.
Proof.
  induction 1 as [|t l Ht _ IH]; cbn [render]; [reflexivity|].
  rewrite all_chars_app, (render_tok_plain t Ht). exact IH.
Qed.

Lemma plain_free s : all_chars plain s = true -> free_of hash s = true /\ free_of equals s = true.
Proof.
  intros H. split; apply (all_chars_impl plain); try exact H; intros c Hc; unfold plain in Hc;
    apply andb_prop in Hc as [H1 H2]; assumption.
Qed.

(* the line written for a name, an expression and a comment:  <name> = <rendered expression>#<comment> *)
Definition write_line (x : string) (e : expr) (cm : option string) : option string :=
  match render_expr e with
  | Some s => Some (((x ++ " ") ++ String "=" (String " " s))
                      ++ match cm with Some c => String "#" c | None => EmptyString end)
  | None => None
  end.

Lemma lex_name x : good_id x = true -> lex (x ++ " ") = Some [TId x].
Proof.
  intros H. change (x ++ " ") with (render [SId x]).
  rewrite lex_render; [reflexivity|]. constructor; [exact H|constructor].
Qed.

Lemma rendered_plain e s : render_expr e = Some s -> all_chars plain s = true.
Proof.
  unfold render_expr, render_tokens. destruct (spell (print_expr e)) as [l|] eqn:E; [|discriminate]. intros [= <-].
  apply render_plain. apply (spell_ok _ l E).
Qed.

Theorem parse_written_line x e cm s :
  good_id x = true -> is_keyword x = false -> writable e ->
  write_line x e cm = Some s -> parse_line s = Some (x, e, cm).
Proof.
  intros Hx Hk W. unfold write_line. destruct (render_expr e) as [rs|] eqn:R; [|discriminate]. intros [= <-].
  destruct (plain_free rs (rendered_plain e rs R)) as [Hrs _].
  destruct (plain_free x (all_chars_impl is_id_char plain x idchar_plain (good_id_chars x Hx))) as [Hxh Hxe].
  set (body := (x ++ " ") ++ String "=" (String " " rs)).
  assert (Hb : free_of hash body = true).
  { unfold body, free_of in *. rewrite !all_chars_app, Hxh. cbn [all_chars]. rewrite Hrs. reflexivity. }
  assert (Hn : free_of equals (x ++ " ") = true).
  { unfold free_of in *. rewrite all_chars_app, Hxe. reflexivity. }
  (* the line without the comment is read as x and e; the comment, if there is one, is inert *)
  assert (Hl : parse_line body = Some (x, e, None)).
  { unfold parse_line. rewrite (cut_at_none hash body Hb). unfold body.
    rewrite (cut_at_free equals (x ++ " ") "=" (String " " rs) eq_refl Hn), (lex_name x Hx),
      (render_expr_parse_lead " " e rs eq_refl W R : parse_string (String " " rs) = _), Hk.
    reflexivity. }
  destruct cm as [c|]; [rewrite (comment_is_inert body c Hb), Hl|rewrite append_nil_r, Hl]; reflexivity.
Qed.

(* the body of an expressions block, one assignment per line: comment lines (first character that is not white space is
   "#") and blank lines are skipped, every other line is an assignment (ode.lark: expressions; that a comment line does not
   end a headed block is repaired behaviour, fix for C17: /repo 7ef36f6) *)
Definition is_comment_line (s : string) : bool :=
  match skip_space s with String c _ => (code c =? hash)%N | EmptyString => false end.
Definition is_blank_line (s : string) : bool :=
  match skip_space s with EmptyString => true | _ => false end.
Definition skipped (s : string) : bool := is_comment_line s || is_blank_line s.

Fixpoint parse_block (ls : list string) : option (list (string * expr * option string)) :=
  match ls with
  | [] => Some []
  | l :: r =>
      if skipped l then parse_block r
      else match parse_line l, parse_block r with
           | Some a, Some b => Some (a :: b)
           | _, _ => None
           end
  end.

Theorem parse_block_filter ls : parse_block ls = parse_block (filter (fun l => negb (skipped l)) ls).
Proof.
  induction ls as [|l r IH]; [reflexivity|]. cbn [parse_block filter].
  destruct (skipped l) eqn:E; cbn [negb].
  - exact IH.
  - cbn [parse_block]. rewrite E, IH. reflexivity.
Qed.

(* C17: comment lines and blank lines are inert wherever they stand in the block and whatever the comment says *)
Theorem skipped_lines_are_inert ls1 c ls2 : skipped c = true -> parse_block (ls1 ++ c :: ls2) = parse_block (ls1 ++ ls2).
Proof.
  intros Hc. rewrite (parse_block_filter (ls1 ++ c :: ls2)), (parse_block_filter (ls1 ++ ls2)), !filter_app.
  cbn [filter]. rewrite Hc. reflexivity.
Qed.

Lemma comment_line_skipped lead c : all_chars is_space lead = true -> skipped (lead ++ String "#" c) = true.
Proof.
  intros H. unfold skipped, is_comment_line. rewrite (skip_space_all lead (String "#" c) H). reflexivity.
Qed.

Corollary comment_lines_are_inert ls1 lead c ls2 : all_chars is_space lead = true ->
  parse_block (ls1 ++ (lead ++ String "#" c) :: ls2) = parse_block (ls1 ++ ls2).
Proof. intros H. apply skipped_lines_are_inert. apply comment_line_skipped. exact H. Qed.

(* a line feed ends an assignment only outside parentheses (parser.py: the post-lexer LineBreaksInsideParentheses drops
   NEWLINE between an opening parenthesis and its closing one; repaired behaviour, fix for C17: /repo a2e098b); a "#" starts
   a comment that runs to the end of the physical line, parentheses inside it do not count.  [depth_after d l]: the
   parenthesis depth behind physical line l when it is d in front *)
Fixpoint depth_after (d : nat) (l : string) : nat :=
  match l with
  | EmptyString => d
  | String c r =>
      if (code c =? hash)%N then d
      else if (code c =? 40)%N then depth_after (S d) r
      else if (code c =? 41)%N then depth_after (Nat.pred d) r
      else depth_after d r
  end.

Definition nl : string := String (ascii_of_nat 10) EmptyString.

Fixpoint last_code_char (prev : option ascii) (l : string) : option ascii :=
  match l with
  | EmptyString => prev
  | String c r =>
      if (code c =? hash)%N then prev
      else if is_space c then last_code_char prev r
      else last_code_char (Some c) r
  end.

(* the line ends where an expression cannot end: behind + - * / = , or an opening parenthesis (the parser has no use for a
   NEWLINE token there, so the line feed is white space and the statement goes on) *)
Definition ends_open (l : string) : bool :=
  match last_code_char None l with
  | Some c => ((code c =? 43) || (code c =? 45) || (code c =? 42) || (code c =? 47) || (code c =? 61) || (code c =? 44)
               || (code c =? 40))%N
  | None => false
  end.

Definition blank (l : string) : bool := match skip_space l with EmptyString => true | _ => false end.

(* the state behind a physical line: parenthesis depth, and whether the statement is open for the other reason *)
Definition depth_next (d : nat) (l : string) : nat := depth_after d l.
Definition open_next (op : bool) (l : string) : bool := if blank l then op else ends_open l.
Definition closes (d : nat) (op : bool) (l : string) : bool := Nat.eqb (depth_next d l) 0 && negb (open_next op l).

(* acc: the part of the current logical line read so far *)
Fixpoint logical (d : nat) (op : bool) (acc : string) (ls : list string) : list string :=
  match ls with
  | [] => match acc with EmptyString => [] | _ => [acc] end
  | l :: r =>
      if closes d op l then (acc ++ l) :: logical 0 false EmptyString r
      else logical (depth_next d l) (open_next op l) (acc ++ l ++ nl) r
  end.

Definition balanced (l : string) : Prop := depth_after 0 l = 0 /\ ends_open l = false.

Lemma balanced_closes l : balanced l -> closes 0 false l = true.
Proof.
  intros [Hd Ho]. unfold closes, depth_next, open_next. rewrite Hd.
  destruct (blank l); [reflexivity|]. rewrite Ho. reflexivity.
Qed.

Theorem logical_of_balanced_lines ls : Forall balanced ls -> logical 0 false EmptyString ls = ls.
Proof.
  induction 1 as [|l r Hl _ IH]; cbn [logical]; [reflexivity|].
  rewrite (balanced_closes l Hl), IH. reflexivity.
Qed.

(* C17, a statement broken inside parentheses or behind an operator: while no piece closes it the pieces are collected, the
   piece that closes it ends the logical line, and what follows is read on its own *)
Fixpoint pieces_open (d : nat) (op : bool) (ps : list string) : Prop :=
  match ps with
  | [] => True
  | p :: r => closes d op p = false /\ pieces_open (depth_next d p) (open_next op p) r
  end.
Fixpoint state_after (d : nat) (op : bool) (ps : list string) : nat * bool :=
  match ps with [] => (d, op) | p :: r => state_after (depth_next d p) (open_next op p) r end.
Fixpoint glue (ps : list string) : string :=
  match ps with [] => EmptyString | p :: r => p ++ nl ++ glue r end.

Theorem logical_joins_broken_statement ps : forall d op acc last rest,
  pieces_open d op ps -> closes (fst (state_after d op ps)) (snd (state_after d op ps)) last = true ->
  logical d op acc (ps ++ last :: rest) = (acc ++ glue ps ++ last) :: logical 0 false EmptyString rest.
Proof.
  induction ps as [|p r IH]; intros d op acc last rest Ho Hc; cbn [List.app logical pieces_open state_after glue fst snd] in *.
  - rewrite Hc. reflexivity.
  - destruct Ho as [Hp Hr]. rewrite Hp.
    rewrite (IH (depth_next d p) (open_next op p) (acc ++ p ++ nl) last rest Hr Hc).
    rewrite !append_assoc. reflexivity.
Qed.

Definition parse_body (ls : list string) : option (list (string * expr * option string)) :=
  parse_block (logical 0 false EmptyString ls).

Corollary parse_body_of_balanced_lines ls : Forall balanced ls -> parse_body ls = parse_block ls.
Proof. intros H. unfold parse_body. rewrite (logical_of_balanced_lines ls H). reflexivity. Qed.

Example line_examples :
  parse_line "i_K = g_K*(V - E_K)  # uA/cm**2"
    = Some ("i_K", EMul (EVar "g_K") (ESub (EVar "V") (EVar "E_K")), Some " uA/cm**2")
  /\ parse_line "flag = Eq(celltype, 1) #" = Some ("flag", ERel Req (EVar "celltype") (ENum 1 true), Some "")
  /\ parse_line "x = 1 # y = 2 # z" = Some ("x", ENum 1 true, Some " y = 2 # z")
  /\ parse_line "sin = 1" = None
  /\ parse_line "a b = 1" = None
  /\ write_line "dV_dt" (ENeg (EVar "i_K")) (Some " note") = Some "dV_dt = - ( i_K ) # note".
Proof. vm_compute. repeat split; reflexivity. Qed.

Example block_example :
  parse_block ["  # the potassium current"; "i_K = g_K*(V - E_K)"; ""; "#"; "dV_dt = -i_K # mV/ms"; "   "]
  = Some [("i_K", EMul (EVar "g_K") (ESub (EVar "V") (EVar "E_K")), None); ("dV_dt", ENeg (EVar "i_K"), Some " mV/ms")].
Proof. vm_compute. reflexivity. Qed.

Example body_example :
  parse_body ["i_K = g_K*("; "    V"; "    - E_K)  # uA/cm**2 (at 37 C"; "# done )"; "dV_dt = -i_K"]
  = Some [("i_K", EMul (EVar "g_K") (ESub (EVar "V") (EVar "E_K")), Some " uA/cm**2 (at 37 C"); ("dV_dt", ENeg (EVar "i_K"), None)]
  /\ logical 0 false "" ["a = (b"; "+ c)"; "d = 1"] = [String.append "a = (b" (String.append nl "+ c)"); "d = 1"]
  /\ parse_body ["w ="; "   a +"; ""; "   b  # sum"; "x = -"; "w"] = Some [("w", EAdd (EVar "a") (EVar "b"), Some " sum"); ("x", ENeg (EVar "w"), None)]
  (* a comment in the middle of a broken statement is not part of the language: the grammar has comments behind expressions only *)
  /\ parse_body ["i_K = g_K*("; "    V   # the potential"; "    - E_K)"] = None.
Proof. vm_compute. repeat split; reflexivity. Qed.
