(* Run.v — executable entry points used by the correspondence check (extracted to OCaml):
   an order-free reference evaluator of the documented meaning ([sem_eval], proved sound w.r.t.
   the relation Sem), and the bridge from the skeleton of the implementation's generated code
   ([kstmt]: what the harness reads off the generated text with Python's ast) to the verified
   validators of Valid.v. *)
From GX Require Import Base Expr Ode Target Sem.
Open Scope string_scope.
Open Scope list_scope.

Section EvalO.
  Context {T : Type} (N : NumOps T).

  Definition ap1 (f : T -> T) (a : option T) : option T :=
    match a with Some x => Some (f x) | None => None end.
  Definition ap2 (f : T -> T -> T) (a b : option T) : option T :=
    match a, b with Some x, Some y => Some (f x y) | _, _ => None end.
  Definition ap3 (f : T -> T -> T -> T) (a b c : option T) : option T :=
    match a, b, c with Some x, Some y, Some z => Some (f x y z) | _, _, _ => None end.

  (* eval with partial environments: None if some variable has no value.  Every operand is
     evaluated (no short-circuit): numpy.where evaluates both branches, too. *)
  Fixpoint evalo (rho : string -> option T) (e : expr) : option T :=
    match e with
    | ENum q _ => Some (ofQ N q)
    | EVar x => rho x
    | EPi => Some (cpi N)
    | EAdd a b => ap2 (add N) (evalo rho a) (evalo rho b)
    | ESub a b => ap2 (sub N) (evalo rho a) (evalo rho b)
    | EMul a b => ap2 (mul N) (evalo rho a) (evalo rho b)
    | EDiv a b => ap2 (div N) (evalo rho a) (evalo rho b)
    | EPow a b => ap2 (pow N) (evalo rho a) (evalo rho b)
    | ENeg a => ap1 (neg N) (evalo rho a)
    | EFn f a => ap1 (fn N f) (evalo rho a)
    | EMod a b => ap2 (fmod N) (evalo rho a) (evalo rho b)
    | ERel r a b => ap2 (rel N r) (evalo rho a) (evalo rho b)
    | ENot a => ap1 (bnot N) (evalo rho a)
    | EAnd a b => ap2 (band N) (evalo rho a) (evalo rho b)
    | EOr a b => ap2 (bor N) (evalo rho a) (evalo rho b)
    | ECond c a b => ap3 (select N) (evalo rho c) (evalo rho a) (evalo rho b)
    end.
End EvalO.

Section EvalOSound.
  Context {T : Type} (N : NumOps T) (rho : string -> option T) (d : T).

  Definition with_default (y : string) : T := match rho y with Some w => w | None => d end.

  (* if [a] is an answer it is [w], and then every name in [xs] has a value; true of no answer, so that the
     combinators ap1, ap2, ap3 preserve it *)
  Definition answers (xs : list string) (w : T) (a : option T) : Prop :=
    match a with
    | Some v => (forall y, In y xs -> rho y = Some (with_default y)) /\ v = w
    | None => True
    end.

  Lemma answers_ap1 f xs w a : answers xs w a -> answers xs (f w) (ap1 f a).
  Proof. destruct a; [intros [H ->]; split; [exact H|reflexivity]|exact id]. Qed.

  Lemma answers_ap2 f xs ys w1 w2 a b :
    answers xs w1 a -> answers ys w2 b -> answers (xs ++ ys) (f w1 w2) (ap2 f a b).
  Proof.
    destruct a, b; try exact (fun _ _ => I). intros [H1 ->] [H2 ->]. split; [|reflexivity].
    intros y Hy. apply in_app_or in Hy. destruct Hy; auto.
  Qed.

  Lemma answers_ap3 f xs ys zs w1 w2 w3 a b c :
    answers xs w1 a -> answers ys w2 b -> answers zs w3 c ->
    answers (xs ++ ys ++ zs) (f w1 w2 w3) (ap3 f a b c).
  Proof.
    destruct a, b, c; try exact (fun _ _ _ => I). intros [H1 ->] [H2 ->] [H3 ->]. split; [|reflexivity].
    intros y Hy. apply in_app_or in Hy. destruct Hy as [Hy|Hy]; [auto|]. apply in_app_or in Hy. destruct Hy; auto.
  Qed.

  Lemma evalo_sound e v :
    evalo N rho e = Some v -> (forall y, In y (vars e) -> rho y = Some (with_default y)) /\ v = eval N with_default e.
  Proof.
    enough (A : answers (vars e) (eval N with_default e) (evalo N rho e)) by (intros H; rewrite H in A; exact A).
    induction e; cbn [vars eval evalo]; auto using answers_ap1, answers_ap2, answers_ap3.
    - split; [intros y []|reflexivity].
    - unfold answers, with_default. destruct (rho x) as [w|] eqn:E; [|exact I].
      split; [|reflexivity]. intros y [<-|[]]. rewrite E. reflexivity.
    - split; [intros y []|reflexivity].
  Qed.
End EvalOSound.

Section SemEval.
  Context {T : Type} (N : NumOps T) (o : ode).
  Variable ss : list string.
  Variable inp : inputs T.
  Variable with_dt : bool.

  (* the documented meaning of a name, computed by unfolding definitions (no evaluation order
     is involved); None = out of fuel (cyclic definitions) or an undefined name *)
  Fixpoint sem_eval (fuel : nat) (x : string) : option T :=
    match fuel with
    | O => None
    | S k =>
        match find_assign o x with
        | None => base o ss inp with_dt x
        | Some a => evalo N (sem_eval k) (a_expr a)
        end
    end.

  Theorem sem_eval_sound fuel x v :
    sem_eval fuel x = Some v -> Sem N o ss inp with_dt x v.
  Proof.
    revert x v. induction fuel as [|k IH]; intros x v H; [discriminate|].
    simpl in H. destruct (find_assign o x) as [a|] eqn:Ef.
    - destruct (evalo_sound N (sem_eval k) v _ _ H) as [Hv ->].
      apply SemDef; [exact Ef|]. intros y Hy. apply IH, Hv, Hy.
    - apply SemBase; assumption.
  Qed.

  Definition sem_eval_expr (fuel : nat) (e : expr) : option T := evalo N (sem_eval fuel) e.

  Theorem sem_eval_expr_sound fuel e v :
    sem_eval_expr fuel e = Some v -> SemE N o ss inp with_dt e v.
  Proof.
    intros H. destruct (evalo_sound N (sem_eval fuel) v _ _ H) as [Hv ->].
    eexists. split; [|reflexivity]. intros y Hy. apply sem_eval_sound with fuel, Hv, Hy.
  Qed.
End SemEval.

Inductive kstmt :=
| KUnS (x : string) (i : nat)
| KUnP (x : string) (i : nat)
| KUnM (x : string) (i : nat)
| KLet (x : string) (reads : list string)   (* x = <text>; reads = the names the text mentions *)
| KStore (i : nat) (e : expr).              (* values[i] = e, parsed from the generated text *)

(* A let of the generated code is matched with the model's definition of the same name; the
   generated text may not read a name the definition does not mention ("time" is printed as the
   symbol t: ode.py binds symbols["time"] = t).  (That the text computes
   the definition's value is the printer contract, checked numerically.) *)
Definition fill_stmt (o : ode) (k : kstmt) : option stmt :=
  match k with
  | KUnS x i => Some (SUnpackS x i)
  | KUnP x i => Some (SUnpackP x i)
  | KUnM x i => Some (SUnpackM x i)
  | KLet x reads =>
      match find_assign o x with
      | Some a => if forallb (fun r => mem r (vars (a_expr a))
                                     || (String.eqb r "t" && mem "time" (vars (a_expr a)))) reads
                  then Some (SLet x (a_expr a)) else None
      | None => None
      end
  | KStore i e => Some (SStore i e)
  end.

Fixpoint fill_body (o : ode) (ks : list kstmt) : option (list stmt) :=
  match ks with
  | [] => Some []
  | k :: ks' =>
      match fill_stmt o k, fill_body o ks' with
      | Some s, Some b => Some (s :: b)
      | _, _ => None
      end
  end.

(* diagnostics only: index of the first statement the body validator rejects *)
Section Diag.
  Context {T : Type} (o : ode) (ss : list string) (inp : inputs T) (with_dt : bool).
  Fixpoint first_bad (nret : nat) (defined : list string) (body : list stmt) (pos : nat) : option nat :=
    match body with
    | [] => None
    | s :: body' =>
        if ok_stmt o ss inp with_dt nret defined s
        then first_bad nret (binds s ++ defined) body' (S pos)
        else Some pos
    end.
End Diag.
