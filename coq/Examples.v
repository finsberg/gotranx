(* Examples.v — a concrete, non-trivial model used to show (by computation inside Coq) that the
   hypotheses of the property theorems are satisfiable: it is loaded by the loader mirror, has
   two components, an unused intermediate, a chain of intermediates, a conditional, and the
   dependency shape that exposed the hash-seed defect (C09). *)
From GX Require Import Base Expr Ode Target Sem Codegen Load Valid.
From Coq Require Import QArith Qcanon.
Close Scope Q_scope.
Open Scope string_scope.
Open Scope list_scope.

Definition lit (z : Z) : expr := ENum (inject_Z z) true.
Definition v (x : string) : expr := EVar x.

Definition ex_items : list item :=
  [ IStates ["A"] [ {| en_name := "a"; en_value := lit 1; en_unit := None; en_desc := None |};
                    {| en_name := "y"; en_value := lit 2; en_unit := Some "mV"; en_desc := None |} ];
    IStates ["B"] [ {| en_name := "z"; en_value := lit 3; en_unit := None; en_desc := None |} ];
    IParams ["A"] [ {| en_name := "p"; en_value := ENum (1 # 2) false; en_unit := None; en_desc := None |};
                    {| en_name := "unused_p"; en_value := lit 7; en_unit := None; en_desc := None |} ];
    IExprs ["A"] [ {| ln_name := "da_dt"; ln_expr := EAdd (v "y") (v "k2"); ln_unit := None; ln_comment := None |};
                   {| ln_name := "k2"; ln_expr := EMul (v "k1") (v "p"); ln_unit := None; ln_comment := None |};
                   {| ln_name := "k1"; ln_expr := ECond (ERel Rlt (v "t") (lit 1)) (v "z") (ENeg (v "z"));
                      ln_unit := None; ln_comment := None |};
                   {| ln_name := "dy_dt"; ln_expr := EDiv (v "y") (lit 4); ln_unit := None; ln_comment := None |};
                   {| ln_name := "dead"; ln_expr := EMul (v "a") (v "a"); ln_unit := None; ln_comment := None |} ];
    IComment "a comment";
    IExprs ["B"] [ {| ln_name := "dz_dt"; ln_expr := ESub (v "z") (v "k1"); ln_unit := None; ln_comment := None |} ] ].

Definition ex_ode : ode :=
  match load ex_items with Ok o => o | Err _ => {| o_states := []; o_params := []; o_inters := []; o_derivs := [] |} end.

Definition ex_ss : list string := match sorted_states ex_ode with Some l => l | None => [] end.

Definition ex_inp : inputs Qc :=
  {| in_t := Q2Qc (1 # 2); in_dt := Q2Qc (1 # 4);
     in_states := map (fun z => Q2Qc (inject_Z z)) [5; 6; 7]%Z;
     in_params := map (fun z => Q2Qc (inject_Z z)) [2; 9]%Z;
     in_missing := [] |}.

Definition ex_rhs (ru : bool) : func :=
  match gen_rhs ex_ode ru "tsp" with Some f => f | None => {| f_name := ""; f_args := []; f_nret := 0; f_body := [] |} end.
Definition ex_euler (ru : bool) : func :=
  match gen_euler ex_ode ru "explicit_euler" "stdp" with Some f => f
  | None => {| f_name := ""; f_args := []; f_nret := 0; f_body := [] |} end.
Definition ex_monitor : func :=
  match gen_monitor ex_ode false "tsp" with Some f => f | None => {| f_name := ""; f_args := []; f_nret := 0; f_body := [] |} end.
Definition ex_monitor_tbl : list string := match sorted_names ex_ode false with Some l => l | None => [] end.

Lemma ex_loaded : exists o, load ex_items = Ok o /\ length (o_inters o) = 3 /\ length (o_derivs o) = 3.
Proof. vm_compute. eexists. split; [reflexivity|]. split; reflexivity. Qed.

Lemma ex_ss_value : ex_ss = ["y"; "z"; "a"].
Proof. vm_compute. reflexivity. Qed.

Lemma ex_sizes : sizes_ok ex_ode ex_ss ex_inp.
Proof. vm_compute. repeat split. Qed.

Lemma ex_rhs_valid :
  valid_rhs ex_ode ex_ss ex_inp false (ex_rhs false) = true /\ valid_rhs ex_ode ex_ss ex_inp false (ex_rhs true) = true.
Proof. vm_compute. split; reflexivity. Qed.
