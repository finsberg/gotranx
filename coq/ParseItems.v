(* ParseItems.v — the item list of a model text with every right-hand side and every declared value as a token
   sequence (what the lexer hands to the grammar), the step from such a text to the items the loader receives
   ([parse_items], by Parse.parse_expr), and the writer's counterpart [print_items].  Reading what was written gives
   the items back ([parse_print_items]), so C11 holds one level closer to the file: the token text of the saved model
   loads to an equivalent model ([save_print_load]). *)
From GX Require Import Base Parse Ode Load Save Perm SaveLoad.

Record tentry := { te_name : string; te_value : list tok; te_unit : option string; te_desc : option string }.
Record tline := { tl_name : string; tl_expr : list tok; tl_unit : option string; tl_comment : option string }.
Inductive titem :=
| TStates (comps : list string) (es : list tentry)
| TParams (comps : list string) (es : list tentry)
| TExprs (comps : list string) (ls : list tline)
| TComment (s : string).

Fixpoint all_some {A} (l : list (option A)) : option (list A) :=
  match l with
  | [] => Some []
  | Some x :: l' => match all_some l' with Some r => Some (x :: r) | None => None end
  | None :: _ => None
  end.

Definition parse_entry (e : tentry) : option entry :=
  match parse_expr (te_value e) with
  | Some v => Some {| en_name := te_name e; en_value := v; en_unit := te_unit e; en_desc := te_desc e |}
  | None => None
  end.
Definition parse_line (l : tline) : option line :=
  match parse_expr (tl_expr l) with
  | Some v => Some {| ln_name := tl_name l; ln_expr := v; ln_unit := tl_unit l; ln_comment := tl_comment l |}
  | None => None
  end.
Definition parse_item (i : titem) : option item :=
  match i with
  | TStates c es => match all_some (map parse_entry es) with Some r => Some (IStates c r) | None => None end
  | TParams c es => match all_some (map parse_entry es) with Some r => Some (IParams c r) | None => None end
  | TExprs c ls => match all_some (map parse_line ls) with Some r => Some (IExprs c r) | None => None end
  | TComment s => Some (IComment s)
  end.
(* None = a syntax error in some expression *)
Definition parse_items (l : list titem) : option (list item) := all_some (map parse_item l).

Definition print_entry (e : entry) : tentry :=
  {| te_name := en_name e; te_value := print_expr (en_value e); te_unit := en_unit e; te_desc := en_desc e |}.
Definition print_line (l : line) : tline :=
  {| tl_name := ln_name l; tl_expr := print_expr (ln_expr l); tl_unit := ln_unit l; tl_comment := ln_comment l |}.
Definition print_item (i : item) : titem :=
  match i with
  | IStates c es => TStates c (map print_entry es)
  | IParams c es => TParams c (map print_entry es)
  | IExprs c ls => TExprs c (map print_line ls)
  | IComment s => TComment s
  end.
Definition print_items (l : list item) : list titem := map print_item l.

Definition writable_item (i : item) : Prop :=
  match i with
  | IStates _ es | IParams _ es => forall e, In e es -> writable (en_value e)
  | IExprs _ ls => forall l, In l ls -> writable (ln_expr l)
  | IComment _ => True
  end.

Lemma all_some_written {A B} (pr : A -> B) (pa : B -> option A) l :
  (forall x, In x l -> pa (pr x) = Some x) -> all_some (map pa (map pr l)) = Some l.
Proof.
  induction l as [|x l IH]; intros H; [reflexivity|].
  cbn [map all_some]. rewrite (H x (or_introl eq_refl)), IH; [reflexivity|].
  intros y Hy. apply H. right. exact Hy.
Qed.

Lemma parse_print_entry e : writable (en_value e) -> parse_entry (print_entry e) = Some e.
Proof. intros W. unfold parse_entry, print_entry. cbn. rewrite (parse_print _ W). destruct e; reflexivity. Qed.

Lemma parse_print_line l : writable (ln_expr l) -> parse_line (print_line l) = Some l.
Proof. intros W. unfold parse_line, print_line. cbn. rewrite (parse_print _ W). destruct l; reflexivity. Qed.

Lemma parse_print_item i : writable_item i -> parse_item (print_item i) = Some i.
Proof.
  destruct i as [c es|c es|c ls|s]; cbn [print_item parse_item writable_item]; intros W; [| | |reflexivity].
  1, 2: rewrite (all_some_written print_entry parse_entry); [reflexivity|]; intros e He; apply parse_print_entry, W, He.
  rewrite (all_some_written print_line parse_line); [reflexivity|]. intros l Hl. apply parse_print_line, W, Hl.
Qed.

Theorem parse_print_items items :
  (forall i, In i items -> writable_item i) -> parse_items (print_items items) = Some items.
Proof. intros W. apply all_some_written. intros i Hi. apply parse_print_item, W, Hi. Qed.

Definition load_tokens (l : list titem) : option (result ode) :=
  match parse_items l with Some items => Some (load items) | None => None end.

Corollary load_tokens_print items :
  (forall i, In i items -> writable_item i) -> load_tokens (print_items items) = Some (load items).
Proof. intros W. unfold load_tokens. rewrite (parse_print_items items W). reflexivity. Qed.

(* C11, save -> token text -> load: for every loaded model whose saved items are writable (no variable is a keyword of the
   expression grammar, no relation is "not equal"), the token text of the saved model loads to an equivalent model *)
Theorem save_print_load items o :
  load items = Ok o ->
  (forall i, In i (save_items (o_states o) (o_params o) (assigns o)) -> writable_item i) ->
  exists o', load_tokens (print_items (save_items (o_states o) (o_params o) (assigns o))) = Some (Ok o') /\ ode_equiv o o'.
Proof.
  intros HL W. destruct (save_then_load items o HL) as [o' [H1 H2]].
  exists o'. split; [|exact H2]. rewrite (load_tokens_print _ W), H1. reflexivity.
Qed.
