(* Annot.v — unit / description / comment annotations carry no numerical meaning (C17): two loaded
   models that agree on names and expressions have the same statement order and layout tables, whatever their
   annotations and component tags. *)
From GX Require Import Base Expr Ode Perm.

Definition acore (a : assign) : string * expr := (a_name a, a_expr a).
Definition dcore (d : decl) : string := d_name d.

Record same_core (o o' : ode) : Prop := {
  sc_states : map dcore (o_states o) = map dcore (o_states o');
  sc_params : map dcore (o_params o) = map dcore (o_params o');
  sc_inters : map acore (o_inters o) = map acore (o_inters o');
  sc_derivs : map acore (o_derivs o) = map acore (o_derivs o') }.

Lemma map_acore_names l l' : map acore l = map acore l' -> map a_name l = map a_name l'.
Proof. intros H. apply (f_equal (map fst)) in H. rewrite !map_map in H. exact H. Qed.

Lemma find_core (l l' : list assign) x :
  map acore l = map acore l' ->
  option_map a_expr (find (fun a => String.eqb (a_name a) x) l)
  = option_map a_expr (find (fun a => String.eqb (a_name a) x) l').
Proof.
  revert l'; induction l as [|a l IH]; intros [|b l'] H; simpl in *; try discriminate; auto.
  injection H as Hn He Hl. rewrite Hn. destruct (String.eqb (a_name b) x); [exact (f_equal Some He)|].
  apply IH. exact Hl.
Qed.

Section SameCore.
  Variables o o' : ode.
  Hypothesis E : same_core o o'.

  Lemma assigns_core : map acore (assigns o) = map acore (assigns o').
  Proof. unfold assigns. rewrite !map_app, (sc_inters _ _ E), (sc_derivs _ _ E). reflexivity. Qed.

  Lemma deps_of_core x : deps_of o x = deps_of o' x.
  Proof.
    unfold deps_of, adeps, find_assign. pose proof (find_core _ _ x assigns_core) as H.
    destruct (find _ (assigns o)), (find _ (assigns o')); try discriminate; [injection H as ->|]; reflexivity.
  Qed.

  Lemma inter_names_core : inter_names o = inter_names o'.
  Proof. exact (f_equal sort_names (map_acore_names _ _ (sc_inters _ _ E))). Qed.
  Lemma deriv_names_core : deriv_names o = deriv_names o'.
  Proof. exact (f_equal sort_names (map_acore_names _ _ (sc_derivs _ _ E))). Qed.
  Lemma param_names_core : param_names o = param_names o'.
  Proof. exact (f_equal sort_names (sc_params _ _ E)). Qed.
  Lemma state_names_core : state_names o = state_names o'.
  Proof. exact (f_equal sort_names (sc_states _ _ E)). Qed.

  Lemma used_core x : used o x = used o' x.
  Proof.
    unfold used. generalize assigns_core. generalize (assigns o) (assigns o').
    induction l as [|a l IH]; intros [|b l'] H; simpl in *; try discriminate; auto.
    injection H as Hn He Hl. rewrite He, (IH _ Hl). reflexivity.
  Qed.

  Lemma is_inter_name_core x : is_inter_name o x = is_inter_name o' x.
  Proof. exact (f_equal (mem x) (map_acore_names _ _ (sc_inters _ _ E))). Qed.
  Lemma is_deriv_name_core x : is_deriv_name o x = is_deriv_name o' x.
  Proof. exact (f_equal (mem x) (map_acore_names _ _ (sc_derivs _ _ E))). Qed.

  Theorem sorted_names_core ru : sorted_names o ru = sorted_names o' ru.
  Proof.
    apply sorted_names_ext; [|apply deps_of_core|apply is_inter_name_core|apply used_core].
    unfold all_assign_names. rewrite inter_names_core, deriv_names_core. reflexivity.
  Qed.

  Theorem sorted_states_core : sorted_states o = sorted_states o'.
  Proof. apply sorted_states_ext; [apply sorted_names_core|apply is_deriv_name_core]. Qed.
End SameCore.
