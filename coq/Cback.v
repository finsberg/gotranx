(* Cback.v — what a C99 compiler makes of the right-hand sides the C printer emits: numeric
   constants are typed (an integer constant has type int, a floating constant type double),
   + - * / on two ints are integer operations (/ truncates), a mixed operation converts the int to
   double, the <math.h> functions take and return doubles, fmod has the sign of the dividend.
   [ceval] is that typed evaluation; [eval] is the real-valued meaning of the same tree.
   Expressions here are read off the *generated C text* (harness/cparse.py), so an EMod node is a
   call of fmod and ENum _ true an integer constant. *)
From GX Require Import Base Expr.
From Coq Require Import BinInt.
From Coq Require QArith_base.
Import QArith_base(Qnum, Qden, inject_Z).   (* the names used here: the whole module re-exports ZArith, dear to import *)
Open Scope string_scope.
Open Scope list_scope.

Inductive cval (T : Type) := CI (z : Z) | CD (d : T).
Arguments CI {T}. Arguments CD {T}.

Section CEval.
  Context {T : Type} (N : NumOps T).
  Variable ofZ : Z -> T.           (* conversion int -> double *)
  Variable cfmod : T -> T -> T.    (* fmod of <math.h>: result has the sign of the dividend *)

  Definition to_d (v : cval T) : T := match v with CI z => ofZ z | CD d => d end.

  Definition arith (iop : Z -> Z -> Z) (dop : T -> T -> T) (a b : cval T) : cval T :=
    match a, b with
    | CI x, CI y => CI (iop x y)
    | _, _ => CD (dop (to_d a) (to_d b))
    end.

  Fixpoint ceval (rho : string -> T) (e : expr) : cval T :=
    match e with
    | ENum q true => CI (Qnum q)
    | ENum q false => CD (ofQ N q)
    | EVar x => CD (rho x)
    | EPi => CD (cpi N)
    | EAdd a b => arith Z.add (add N) (ceval rho a) (ceval rho b)
    | ESub a b => arith Z.sub (sub N) (ceval rho a) (ceval rho b)
    | EMul a b => arith Z.mul (mul N) (ceval rho a) (ceval rho b)
    | EDiv a b => arith Z.quot (div N) (ceval rho a) (ceval rho b)     (* C99: truncation toward 0 *)
    | EPow a b => CD (pow N (to_d (ceval rho a)) (to_d (ceval rho b)))  (* double pow(double, double) *)
    | ENeg a => match ceval rho a with CI x => CI (- x) | CD d => CD (neg N d) end
    | EFn f a => CD (fn N f (to_d (ceval rho a)))
    | EMod a b => CD (cfmod (to_d (ceval rho a)) (to_d (ceval rho b)))
    | ERel r a b => CD (rel N r (to_d (ceval rho a)) (to_d (ceval rho b)))
    | ENot a => CD (bnot N (to_d (ceval rho a)))
    | EAnd a b => CD (band N (to_d (ceval rho a)) (to_d (ceval rho b)))
    | EOr a b => CD (bor N (to_d (ceval rho a)) (to_d (ceval rho b)))
    | ECond c a b => CD (select N (to_d (ceval rho c)) (to_d (ceval rho a)) (to_d (ceval rho b)))
    end.

  (* the static type the C compiler gives the expression *)
  Fixpoint is_int (e : expr) : bool :=
    match e with
    | ENum _ i => i
    | EAdd a b | ESub a b | EMul a b | EDiv a b => is_int a && is_int b
    | ENeg a => is_int a
    | _ => false
    end.

  Definition int_valued (v : cval T) : bool := match v with CI _ => true | CD _ => false end.

  Lemma int_valued_arith iop dop a b : int_valued (arith iop dop a b) = int_valued a && int_valued b.
  Proof. destruct a, b; reflexivity. Qed.

  Lemma is_int_ceval rho e : is_int e = int_valued (ceval rho e).
  Proof.
    induction e; cbn [is_int ceval]; try reflexivity;
      try (rewrite int_valued_arith, IHe1, IHe2; reflexivity).
    - destruct int_lit; reflexivity.
    - rewrite IHe. destruct (ceval rho e); reflexivity.
  Qed.

  Lemma ceval_type rho e : is_int e = true -> exists z, ceval rho e = CI z.
  Proof. rewrite (is_int_ceval rho). destruct (ceval rho e) as [z|d]; [eauto|discriminate]. Qed.

  (* an expression is "real-valued in C" if no division has two integer operands and fmod is not
     used: then the C value is the documented real value *)
  Fixpoint c_safe (e : expr) : bool :=
    match e with
    | ENum q i => if i then Pos.eqb (Qden q) 1 else true
    | EVar _ | EPi => true
    | EDiv a b => c_safe a && c_safe b && negb (is_int a && is_int b)
    | EMod _ _ => false
    | EAdd a b | ESub a b | EMul a b | EPow a b | ERel _ a b | EAnd a b | EOr a b =>
        c_safe a && c_safe b
    | ENeg a | EFn _ a | ENot a => c_safe a
    | ECond c a b => c_safe c && c_safe a && c_safe b
    end.

  (* int -> double is a ring embedding that agrees with the meaning of integer literals *)
  Record IntEmbedding : Prop := {
    ie_lit : forall z, ofZ z = ofQ N (inject_Z z);
    ie_add : forall a b, ofZ (a + b) = add N (ofZ a) (ofZ b);
    ie_sub : forall a b, ofZ (a - b) = sub N (ofZ a) (ofZ b);
    ie_mul : forall a b, ofZ (a * b) = mul N (ofZ a) (ofZ b);
    ie_neg : forall a, ofZ (- a) = neg N (ofZ a) }.

  Hypothesis IE : IntEmbedding.

  Lemma to_d_arith iop dop a b :
    (forall x y, a = CI x -> b = CI y -> ofZ (iop x y) = dop (ofZ x) (ofZ y)) ->
    to_d (arith iop dop a b) = dop (to_d a) (to_d b).
  Proof. destruct a, b; simpl; auto. Qed.

  Theorem ceval_safe rho e : c_safe e = true -> to_d (ceval rho e) = eval N rho e.
  Proof.
    induction e; cbn [c_safe ceval eval to_d]; intros H; try reflexivity; try discriminate;
      (* the operations C computes in double: the same operation on the operands' values *)
      try (apply andb_prop in H as [H1 H2]; rewrite (IHe1 H1), (IHe2 H2); reflexivity);
      try (rewrite (IHe H); reflexivity).
    - (* ENum: an integer literal has denominator 1 *)
      destruct int_lit; [|reflexivity]. destruct q as [n d]. apply Pos.eqb_eq in H. simpl in H. subst d.
      apply (ie_lit IE).
    - (* EAdd, ESub, EMul: on two ints, int -> double commutes with the operation *)
      apply andb_prop in H as [H1 H2]. rewrite <- (IHe1 H1), <- (IHe2 H2). apply to_d_arith. intros. apply (ie_add IE).
    - apply andb_prop in H as [H1 H2]. rewrite <- (IHe1 H1), <- (IHe2 H2). apply to_d_arith. intros. apply (ie_sub IE).
    - apply andb_prop in H as [H1 H2]. rewrite <- (IHe1 H1), <- (IHe2 H2). apply to_d_arith. intros. apply (ie_mul IE).
    - (* EDiv: not both operands are ints *)
      apply andb_prop in H as [[H1 H2]%andb_prop H3]. rewrite <- (IHe1 H1), <- (IHe2 H2). apply to_d_arith.
      intros x y C1 C2. rewrite !(is_int_ceval rho), C1, C2 in H3. discriminate.
    - (* ENeg *) specialize (IHe H). destruct (ceval rho e); simpl in *; rewrite <- IHe; [apply (ie_neg IE)|reflexivity].
    - (* ECond *) apply andb_prop in H as [[H1 H2]%andb_prop H3]. rewrite (IHe1 H1), (IHe2 H2), (IHe3 H3). reflexivity.
  Qed.
End CEval.
