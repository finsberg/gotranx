(* Sympytools.v — mirror of sympytools.rhs_matrix / states_matrix / jacobi_matrix:
     expanded = {}
     for x in sorted_assignments: expanded[x] = x.expr.xreplace(expanded)   (intermediates and state derivatives)
     rhs = [d.expr for d in sorted_state_derivatives]
     while any(rhs.has(k) for k in expanded) and tries < max_tries: rhs = rhs.xreplace(expanded)
     if tries == max_tries: raise
   (xreplace substitutes all definitions simultaneously, once per round; the expansion of the
   definitions in dependency order is the repaired behaviour, fix for C20; state derivatives are definitions
   too because an intermediate may read one - second fix for C20), and the Jacobian as the
   symbolic derivative D of every entry with respect to every state.
   Left out: number / truth_values_explicit, by which rhs_matrix retypes a relation that is read as a
   number (Piecewise((1, r), (0, True)), Ne(g, 0)); expr is untyped and eval gives a relation 1 or 0.
   Three things are proved: the matrix has the meaning of the derivatives (rhs_matrix_meaning), it mentions no
   assigned name (rhs_matrix_fully_expanded), and (Section Total) "they are produced for any acyclic dependency
   depth" (C20): whenever the model has a statement order (no cycle), rhs_matrix with the default bound returns
   a right-hand side, after at most one substitution round, for every dependency depth - because the order is
   sound (OrderSound.sorted_names_sound): every definition (intermediate or state derivative) a definition reads
   has been expanded before it. *)
From GX Require Import Base Expr Ode OrderSound Schemes.
From Coq Require Import Lia.
Open Scope string_scope.
Open Scope list_scope.

Definition inter_subst (o : ode) (x : string) : option expr :=
  match find_assign o x with
  | Some a => Some (a_expr a)
  | None => None
  end.

Definition is_assigned (o : ode) (x : string) : bool := mem x (map a_name (assigns o)).
Definition mentions_assigned (o : ode) (e : expr) : bool := existsb (is_assigned o) (vars e).

Definition expand_step (o : ode) (acc : list (string * expr)) (n : string) : list (string * expr) :=
  match find_assign o n with
  | Some a => acc ++ [(n, subst (fun y => lookup y acc) (a_expr a))]
  | None => acc
  end.
Definition expanded (o : ode) (ord : list string) : list (string * expr) :=
  fold_left (expand_step o) ord [].
Definition exp_subst (o : ode) (ord : list string) (x : string) : option expr :=
  lookup x (expanded o ord).

Fixpoint rhs_loop (fuel : nat) (o : ode) (sb : string -> option expr) (es : list expr) (tries : nat)
  : list expr * nat :=
  match fuel with
  | O => (es, tries)
  | S f => if existsb (mentions_assigned o) es
           then rhs_loop f o sb (map (subst sb) es) (S tries)
           else (es, tries)
  end.

Definition rhs_init (o : ode) (ord : list string) : list expr :=
  map (fun n => match find_assign o n with Some a => a_expr a | None => e_zero end)
      (filter (is_deriv_name o) ord).

(* None = RuntimeError("Maximum number of tries used") *)
Definition rhs_matrix (o : ode) (max_tries : nat) : option (list expr) :=
  match sorted_names o false with
  | Some ord =>
      let '(es, n) := rhs_loop max_tries o (exp_subst o ord) (rhs_init o ord) 0 in
      if Nat.eqb n max_tries then None else Some es
  | None => None
  end.

(* max_tries = len(intermediates) + 1, the dictionary holding the state derivatives too (repaired default, fix for C20) *)
Definition default_tries (o : ode) : nat := S (length (assigns o)).

Definition jacobian (o : ode) (max_tries : nat) : option (list (list expr)) :=
  match rhs_matrix o max_tries, sorted_states o with
  | Some es, Some ss => Some (map (fun e => map (fun s => D s e) ss) es)
  | _, _ => None
  end.

Lemma lookup_expand_step o acc n x e :
  lookup x (expand_step o acc n) = Some e ->
  lookup x acc = Some e
  \/ exists a, find_assign o n = Some a /\ x = n /\ e = subst (fun y => lookup y acc) (a_expr a).
Proof.
  unfold expand_step. destruct (find_assign o n) as [a|]; [|auto].
  rewrite lookup_app. destruct (lookup x acc); [auto|]. simpl.
  destruct (String.eqb_spec x n) as [->|]; [|discriminate]. intros [= <-]. eauto.
Qed.

Section Meaning.
  Context {T : Type} (N : NumOps T) (o : ode).
  Variable rho : string -> T.
  (* rho gives every assigned name the value of its defining expression (the documented meaning) *)
  Hypothesis consistent : forall x a, find_assign o x = Some a -> rho x = eval N rho (a_expr a).

  Definition sound_subst (sb : string -> option expr) : Prop :=
    forall x e, sb x = Some e -> rho x = eval N rho e.

  Lemma subst_round_preserves sb e : sound_subst sb -> eval N rho (subst sb e) = eval N rho e.
  Proof.
    intros H. rewrite eval_subst. apply eval_ext. intros x _.
    destruct (sb x) as [e'|] eqn:E; [|reflexivity]. symmetry. apply H. exact E.
  Qed.

  Lemma inter_subst_sound : sound_subst (inter_subst o).
  Proof.
    intros x e H. unfold inter_subst in H.
    destruct (find_assign o x) as [a|] eqn:E; [|discriminate].
    injection H as <-. apply consistent. exact E.
  Qed.

  Lemma expanded_sound ord : sound_subst (exp_subst o ord).
  Proof.
    unfold exp_subst, expanded.
    apply (fold_left_prefix_inv (expand_step o) (fun _ acc => sound_subst (fun x => lookup x acc))); [discriminate|].
    intros _ n _ acc _ Hacc x e Hl. apply lookup_expand_step in Hl as [Hl|(a & Ea & -> & ->)].
    - exact (Hacc x e Hl).
    - rewrite (subst_round_preserves _ _ Hacc). apply consistent. exact Ea.
  Qed.

  Lemma rhs_loop_preserves sb fuel : sound_subst sb -> forall es tries,
    map (eval N rho) (fst (rhs_loop fuel o sb es tries)) = map (eval N rho) es.
  Proof.
    intros Hsb. induction fuel as [|f IH]; intros es tries; simpl; [reflexivity|].
    destruct (existsb (mentions_assigned o) es); [|reflexivity].
    rewrite IH, map_map. apply map_ext. intros e. apply subst_round_preserves. exact Hsb.
  Qed.

  Theorem rhs_matrix_meaning max_tries es ord :
    sorted_names o false = Some ord ->
    rhs_matrix o max_tries = Some es ->
    map (eval N rho) es = map (eval N rho) (rhs_init o ord).
  Proof.
    unfold rhs_matrix. intros -> H.
    rewrite <- (rhs_loop_preserves (exp_subst o ord) max_tries (expanded_sound ord) (rhs_init o ord) 0).
    destruct (rhs_loop max_tries o (exp_subst o ord) (rhs_init o ord) 0) as [es' n].
    destruct (Nat.eqb n max_tries); [discriminate|]. injection H as <-. reflexivity.
  Qed.
End Meaning.

Lemma rhs_loop_stops fuel o sb : forall es tries,
  existsb (mentions_assigned o) (fst (rhs_loop fuel o sb es tries)) = false
  \/ snd (rhs_loop fuel o sb es tries) = tries + fuel.
Proof.
  induction fuel as [|f IH]; intros es tries; simpl; [right; apply plus_n_O|].
  destruct (existsb (mentions_assigned o) es) eqn:E; [|left; exact E].
  destruct (IH (map (subst sb) es) (S tries)) as [H|H]; [left; exact H|right; rewrite H; apply plus_n_Sm].
Qed.

Theorem rhs_matrix_fully_expanded o max_tries es :
  rhs_matrix o max_tries = Some es -> existsb (mentions_assigned o) es = false.
Proof.
  unfold rhs_matrix. destruct (sorted_names o false) as [ord|]; [|discriminate].
  destruct (rhs_loop_stops max_tries o (exp_subst o ord) (rhs_init o ord) 0) as [H|H];
    destruct (rhs_loop max_tries o (exp_subst o ord) (rhs_init o ord) 0) as [es' n]; simpl in H.
  - destruct (Nat.eqb n max_tries); [discriminate|]. intros [= <-]. exact H.
  - rewrite H, Nat.eqb_refl. discriminate.
Qed.

Section Total.
  Variable o : ode.
  Variable ord : list string.
  Hypothesis Hord : sorted_names o false = Some ord.

  Definition IN (x : string) : Prop := is_assigned o x = true.
  Definition inter_free (e : expr) : Prop := forall y, In y (vars e) -> ~ IN y.

  Lemma mentions_assigned_false e : inter_free e -> mentions_assigned o e = false.
  Proof.
    intros H. unfold mentions_assigned. destruct (existsb (is_assigned o) (vars e)) eqn:E; [|reflexivity].
    apply existsb_exists in E as (y & Hy & Hi). exfalso. exact (H y Hy Hi).
  Qed.

  Lemma IN_find x : IN x -> exists a, find_assign o x = Some a.
  Proof.
    unfold IN, is_assigned. intros H. apply mem_In in H. destruct (find_assign_Some o x H) as (a & Ha & _). eauto.
  Qed.

  Lemma IN_assign x : IN x -> In x (all_assign_names o).
  Proof.
    unfold IN, is_assigned. intros H. apply mem_In in H. apply all_assign_names_In. exact H.
  Qed.

  Lemma subst_inter_free acc e :
    (forall x e', lookup x acc = Some e' -> inter_free e') ->
    (forall x, In x (vars e) -> IN x -> lookup x acc <> None) ->
    inter_free (subst (fun x => lookup x acc) e).
  Proof.
    intros H1 H2 y Hy. rewrite vars_subst_eq in Hy. apply in_flat_map in Hy as (x & Hx & Hy).
    destruct (lookup x acc) as [e'|] eqn:E.
    - exact (H1 x e' E y Hy).
    - destruct Hy as [<-|[]]. intros Hin. exact (H2 x Hx Hin E).
  Qed.

  (* the state of the expansion after the names in [pre] *)
  Definition ExpInv (pre : list string) (acc : list (string * expr)) : Prop :=
    (forall x e, lookup x acc = Some e -> inter_free e)
    /\ (forall x, IN x -> In x pre -> lookup x acc <> None).

  Lemma expanded_inv : ExpInv ord (expanded o ord).
  Proof.
    apply (fold_left_prefix_inv (expand_step o) ExpInv).
    { split; [intros x e H; discriminate|intros x _ []]. }
    intros pre n post acc E [H1 H2]. split.
    - intros x e Hl. apply lookup_expand_step in Hl as [Hl|(a & Ea & -> & ->)]; [exact (H1 x e Hl)|].
      apply subst_inter_free; [exact H1|]. intros z Hz Hin. apply (H2 z Hin).
      (* n reads z, so z comes before n *)
      destruct (sorted_names_sound o false ord Hord) as (_ & _ & _ & Htopo).
      apply (Htopo pre n post E z); [|exact (IN_assign z Hin)].
      apply (deps_of_In o n a z Ea). exact Hz.
    - intros x Hin Hx. unfold expand_step. apply in_app_or in Hx as [Hx|[<-|[]]].
      + specialize (H2 x Hin Hx). destruct (find_assign o n); [|exact H2].
        rewrite lookup_app. destruct (lookup x acc); [discriminate|contradiction].
      + destruct (IN_find n Hin) as [a ->]. rewrite lookup_app.
        destruct (lookup n acc); [discriminate|]. simpl. rewrite String.eqb_refl. discriminate.
  Qed.

  Lemma IN_in_ord x : IN x -> In x ord.
  Proof.
    intros H. destruct (sorted_names_sound o false ord Hord) as (_ & _ & Hall & _).
    apply Hall; [exact (IN_assign x H)|left; reflexivity].
  Qed.

  Lemma one_round_inter_free e : inter_free (subst (exp_subst o ord) e).
  Proof.
    destruct expanded_inv as [H1 H2]. apply (subst_inter_free (expanded o ord)); [exact H1|].
    intros x _ Hin. exact (H2 x Hin (IN_in_ord x Hin)).
  Qed.

  Lemma existsb_map_false es :
    existsb (mentions_assigned o) (map (subst (exp_subst o ord)) es) = false.
  Proof.
    induction es as [|e es IH]; simpl; [reflexivity|].
    rewrite (mentions_assigned_false _ (one_round_inter_free e)), IH. reflexivity.
  Qed.

  (* one round is enough, so any bound of two or more will do *)
  Lemma rhs_matrix_two mt : 2 <= mt -> exists es, rhs_matrix o mt = Some es.
  Proof.
    intros H. destruct mt as [|[|f]]; [lia|lia|].
    unfold rhs_matrix. rewrite Hord. cbn [rhs_loop].
    destruct (existsb (mentions_assigned o) (rhs_init o ord)); [rewrite existsb_map_false|]; cbn; eauto.
  Qed.

  Theorem rhs_matrix_total : exists es, rhs_matrix o (default_tries o) = Some es.
  Proof.
    destruct (existsb (mentions_assigned o) (rhs_init o ord)) eqn:E0.
    - (* some defined name is mentioned, so there is at least one definition *)
      apply rhs_matrix_two. apply existsb_exists in E0 as (e & _ & He).
      apply existsb_exists in He as (y & _ & Hy). unfold is_assigned, default_tries in *.
      destruct (assigns o); [discriminate|cbn; lia].
    - unfold rhs_matrix. rewrite Hord. cbn [default_tries rhs_loop]. rewrite E0. cbn. eauto.
  Qed.

  Corollary jacobian_total : forall ss, sorted_states o = Some ss -> exists j, jacobian o (default_tries o) = Some j.
  Proof.
    intros ss Hss. unfold jacobian. destruct rhs_matrix_total as [es ->]. rewrite Hss. eexists. reflexivity.
  Qed.
End Total.
