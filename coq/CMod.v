(* CMod.v — the C text the generator writes for Mod(a, b) since the repair of the sign defect (/repo 64554cd),
     fmod(fmod(a, b) + b, b),
   computes the language's Mod (the floored modulo: the result has the sign of the divisor, as in sympy, Python and the
   numpy / jax code) over the reals, for every divisor other than 0 - while a single fmod(a, b), whose result has the sign of
   the dividend, does not (Example).  C's fmod over the reals is a - b*trunc(a/b) (RealsC.r_cfmod). *)
From Coq Require Import Reals Lra.
From GX Require Import Expr RealsC.
Open Scope R_scope.

Lemma Int_part_unique (x : R) (n : Z) : IZR n <= x < IZR n + 1 -> Int_part x = n.
Proof.
  intros [H1 H2]. unfold Int_part.
  rewrite <- (up_tech x n H1) by (rewrite plus_IZR; exact H2). apply Z.add_simpl_r.
Qed.

Lemma r_floor_spec x : r_floor x <= x < r_floor x + 1.
Proof. unfold r_floor. destruct (base_Int_part x). lra. Qed.

Lemma r_floor_unique x n : IZR n <= x < IZR n + 1 -> r_floor x = IZR n.
Proof. intros H. unfold r_floor. rewrite (Int_part_unique x n H). reflexivity. Qed.

Lemma r_floor_IZR n : r_floor (IZR n) = IZR n.
Proof. apply r_floor_unique. lra. Qed.

Lemma r_floor_shift x k : r_floor (x + IZR k) = r_floor x + IZR k.
Proof.
  unfold r_floor at 2. rewrite <- plus_IZR. apply r_floor_unique.
  rewrite plus_IZR. destruct (base_Int_part x). lra.
Qed.

Lemma r_trunc_nonneg x : 0 <= x -> r_trunc x = r_floor x.
Proof. intros H. unfold r_trunc. destruct (Rle_dec 0 x); [reflexivity|contradiction]. Qed.

Lemma r_trunc_neg x : x < 0 -> r_trunc x = - r_floor (- x).
Proof. intros H. unfold r_trunc. destruct (Rle_dec 0 x); [lra|reflexivity]. Qed.

Lemma r_trunc_spec x : exists k, r_trunc x = IZR k /\ x - 1 < IZR k < x + 1.
Proof.
  destruct (Rle_lt_dec 0 x) as [H|H].
  - rewrite (r_trunc_nonneg x H). exists (Int_part x). split; [reflexivity|]. destruct (base_Int_part x). lra.
  - rewrite (r_trunc_neg x H). exists (- Int_part (- x))%Z. rewrite opp_IZR. split; [reflexivity|].
    destruct (base_Int_part (- x)). lra.
Qed.

Theorem fmod_twice_is_floored_mod a b :
  b <> 0 -> r_cfmod (r_cfmod a b + b) b = a - b * r_floor (a / b).
Proof.
  intros Hb. unfold r_cfmod. destruct (r_trunc_spec (a / b)) as (k & -> & Hk).
  (* k = trunc (a/b).  The first remainder plus b has the quotient a/b - k + 1 > 0, where trunc is floor, and floor
     commutes with the integer shift 1 - k *)
  replace ((a - b * IZR k + b) / b) with (a / b + (1 - IZR k)) by (field; exact Hb).
  rewrite r_trunc_nonneg by lra. rewrite <- (minus_IZR 1 k), r_floor_shift, minus_IZR. ring.
Qed.

Corollary printed_mod_is_the_models_mod a b : b <> 0 -> r_cfmod (r_cfmod a b + b) b = fmod ROps a b.
Proof. exact (fmod_twice_is_floored_mod a b). Qed.

Example single_fmod_has_the_sign_of_the_dividend :
  r_cfmod (-17 / 10) 2 = -17 / 10 /\ fmod ROps (-17 / 10) 2 = 3 / 10.
Proof.
  split.
  - unfold r_cfmod. rewrite r_trunc_neg, (r_floor_unique (- (-17 / 10 / 2)) 0); lra.
  - simpl. rewrite (r_floor_unique (-17 / 10 / 2) (-1)); lra.
Qed.
