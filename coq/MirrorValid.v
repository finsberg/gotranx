(* MirrorValid.v — the mirror of the code generator (Codegen) is a verified compiler: for every
   well-formed model for which an order exists, each generated function passes its validator
   (Valid.valid_rhs / valid_euler / valid_named), hence (Valid.rhs_sound, ...) runs to completion and
   returns in every slot the documented meaning of the name that belongs there.  With and without remove_unused.
   The bodies of rhs, Euler, monitor_values and (MirrorRL) Rush-Larsen are instances of one loop, [gen_body];
   the loop of missing_values stops early and is reasoned about directly (Section Requests).
   The hypotheses of the mirror_*_correct theorems are the boolean well-formedness facts [wf_gen], evaluated
   by the harness on the mirror of every model the implementation's loader accepted. *)
From GX Require Import Base Expr Ode OrderSound Target Sem Codegen Valid.
From Coq Require Import Lia Permutation.
Open Scope string_scope.
Open Scope list_scope.

Section Generic.
  Context {T : Type} (o : ode) (ss : list string) (inp : inputs T) (wd : bool).
  Notation vb := (valid_body o ss inp wd).
  Notation oks := (ok_stmt o ss inp wd).

  Definition defs_after (b : list stmt) (d : list string) : list string :=
    fold_left (fun d s => binds s ++ d) b d.

  Lemma defs_after_app b1 b2 d : defs_after (b1 ++ b2) d = defs_after b2 (defs_after b1 d).
  Proof. apply fold_left_app. Qed.

  Lemma valid_body_app nret b1 : forall d b2,
    vb nret d (b1 ++ b2) = vb nret d b1 && vb nret (defs_after b1 d) b2.
  Proof.
    induction b1 as [|s b1 IH]; intros d b2; simpl; [reflexivity|].
    rewrite IH, andb_assoc. reflexivity.
  Qed.

  Lemma defs_after_In b : forall d x, In x (defs_after b d) <-> In x d \/ In x (flat_map binds b).
  Proof.
    induction b as [|s b IH]; intros d x; cbn [flat_map]; [cbn; tauto|].
    change (defs_after (s :: b) d) with (defs_after b (binds s ++ d)). split; intros H.
    - apply IH in H. destruct H as [H|H]; [apply in_app_or in H; destruct H|]; auto using in_or_app.
    - apply IH. destruct H as [H|H]; [|apply in_app_or in H; destruct H]; auto using in_or_app.
  Qed.

  Lemma ok_stmt_ext nret d d' s :
    (forall x, In x d <-> In x d') -> oks nret d s = oks nret d' s.
  Proof.
    intros H. assert (Hm : forall x, mem x d = mem x d') by (intros x; apply mem_ext, H).
    destruct s as [x i|x i|x i|x e|i e]; cbn [ok_stmt];
      [rewrite (Hm x)..|rewrite (Hm x), (forallb_ext' _ _ (vars e) Hm)|rewrite (forallb_ext' _ _ (vars e) Hm)]; reflexivity.
  Qed.

  Lemma valid_body_ext nret b : forall d d',
    (forall x, In x d <-> In x d') -> vb nret d b = vb nret d' b.
  Proof.
    induction b as [|s b IH]; intros d d' H; simpl; [reflexivity|].
    rewrite (ok_stmt_ext nret d d' s H). f_equal. apply IH.
    intros x. rewrite !in_app_iff. apply or_iff_compat_l, H.
  Qed.

  Lemma ok_let nret d n a :
    find_assign o n = Some a -> ~ In n d -> (forall y, In y (vars (a_expr a)) -> In y d) ->
    oks nret d (SLet n (a_expr a)) = true.
  Proof.
    intros Hfa Hn Hd. unfold ok_stmt. rewrite (proj2 (mem_false_In n d) Hn), Hfa, expr_eqb_refl.
    apply forallb_mem, Hd.
  Qed.

  Lemma ok_store nret d i e :
    i < nret -> (forall y, In y (vars e) -> In y d) -> oks nret d (SStore i e) = true.
  Proof.
    intros Hi Hd. unfold ok_stmt. rewrite (proj2 (Nat.ltb_lt i nret) Hi), andb_true_r.
    apply forallb_mem, Hd.
  Qed.

  (* starting from the defined names d, the assignments named in l can be let-bound in this order *)
  Definition emits (d l : list string) : Prop :=
    NoDup l /\ (forall n, In n l -> ~ In n d)
    /\ forall pre n post, l = pre ++ n :: post ->
         exists a, find_assign o n = Some a /\ forall y, In y (vars (a_expr a)) -> In y d \/ In y pre.

  Lemma emits_cons d n l :
    emits d (n :: l) ->
    (exists a, find_assign o n = Some a /\ ~ In n d /\ forall y, In y (vars (a_expr a)) -> In y d)
    /\ forall d', (forall y, In y (n :: d) -> In y d') -> (forall m, In m l -> In m d' -> In m (n :: d)) ->
                  emits d' l.
  Proof.
    intros ([Hn Hnd']%NoDup_cons_iff & Hfr & Hdeps). split.
    - pose proof (Hdeps [] n l eq_refl) as (a & Hfa & Ha). exists a. split; [exact Hfa|]. split; [apply Hfr; left; reflexivity|].
      intros y Hy. pose proof (Ha y Hy) as [H|[]]. exact H.
    - intros d' Hsub Hnew. split; [exact Hnd'|]. split.
      + intros m Hm Hc. pose proof (Hnew m Hm Hc) as [<-|H]; [exact (Hn Hm)|exact (Hfr m (or_intror Hm) H)].
      + intros pre m post E. pose proof (Hdeps (n :: pre) m post (f_equal (cons n) E)) as (a & Hfa & Ha).
        exists a. split; [exact Hfa|]. intros y Hy. pose proof (Ha y Hy) as [H|[<-|H]]; auto using in_eq, in_cons.
  Qed.

  Lemma flat_map_valid {A} (f : A -> list stmt) nret d l :
    (forall x, In x l -> vb nret d (f x) = true /\ defs_after (f x) d = d) ->
    vb nret d (flat_map f l) = true /\ defs_after (flat_map f l) d = d.
  Proof.
    induction l as [|x l IH]; intros H; [split; reflexivity|]. cbn [flat_map].
    pose proof (H x (or_introl eq_refl)) as [H1 H2].
    rewrite valid_body_app, defs_after_app, H1, H2. apply IH. intros y Hy. apply H. right. exact Hy.
  Qed.

  (* one block of unpacking statements; the induction is over any list of (index, name) pairs, since
     the tail of an enumeration from 0 is not one *)
  Lemma unpack_valid nret mk keep tbl :
    (forall x i, binds (mk x i) = [x]) -> NoDup tbl ->
    (forall x i d, In x tbl -> index_of x tbl = Some i -> ~ In x d -> oks nret d (mk x i) = true) ->
    forall d, (forall x, In x tbl -> ~ In x d) -> vb nret d (unpack_with mk keep tbl) = true.
  Proof.
    intros Hb Hnd Hok d Hfr. unfold unpack_with.
    assert (Hs : NoDup (map snd (enumerate tbl))) by (unfold enumerate; rewrite map_snd_enum_from; exact Hnd).
    assert (Hl : forall i x, In (i, x) (enumerate tbl) -> In x tbl /\ index_of x tbl = Some i /\ ~ In x d).
    { intros i x H. apply enumerate_nth in H. pose proof (nth_error_In _ _ H) as Hx.
      split; [exact Hx|]. split; [exact (NoDup_index_of tbl i x Hnd H)|exact (Hfr x Hx)]. }
    clear Hfr. revert d Hs Hl. generalize (enumerate tbl) as l.
    induction l as [|[i x] l IH]; intros d Hs Hl; [reflexivity|].
    cbn [map snd] in Hs. apply NoDup_cons_iff in Hs. destruct Hs as [Hx Hs'].
    pose proof (Hl i x (or_introl eq_refl)) as (Hin & Hi & Hxd).
    cbn [flat_map fst snd]. case (keep x).
    - cbn [app valid_body]. rewrite (Hok x i d Hin Hi Hxd), Hb. apply (IH _ Hs').
      intros j y Hj. pose proof (Hl j y (or_intror Hj)) as (Hy & Hj' & Hyd). split; [exact Hy|]. split; [exact Hj'|].
      intros [<-|Hc]; [apply Hx, (in_map snd _ _ Hj)|exact (Hyd Hc)].
    - apply (IH _ Hs'). intros j y Hj. exact (Hl j y (or_intror Hj)).
  Qed.

  Lemma unpack_binds mk keep tbl :
    (forall x i, binds (mk x i) = [x]) -> flat_map binds (unpack_with mk keep tbl) = filter keep tbl.
  Proof.
    intros Hb. unfold unpack_with, enumerate. generalize 0.
    induction tbl as [|x tbl IH]; intros k; cbn [enum_from flat_map filter fst snd]; [reflexivity|].
    case (keep x); cbn [app flat_map]; rewrite ?Hb, IH; reflexivity.
  Qed.

  Lemma unpack_defs mk keep tbl d y :
    (forall x i, binds (mk x i) = [x]) ->
    In y (defs_after (unpack_with mk keep tbl) d) <-> In y d \/ (keep y = true /\ In y tbl).
  Proof.
    intros Hb. rewrite defs_after_In, (unpack_binds mk keep tbl Hb). split.
    - intros [H|H]; [left; exact H|right]. apply filter_In in H. split; apply H.
    - intros [H|[H1 H2]]; [left; exact H|right]. apply filter_In. split; assumption.
  Qed.

  Lemma unpack_no_store mk keep tbl j :
    (forall x i, binds (mk x i) = [x]) -> stores_at j (unpack_with mk keep tbl) = [].
  Proof.
    intros Hb. unfold stores_at, unpack_with. induction (enumerate tbl) as [|[i x] l IH]; [reflexivity|].
    cbn [flat_map snd fst]. rewrite flat_map_app, IH, app_nil_r.
    case (keep x); [|reflexivity]. cbn [flat_map]. specialize (Hb x i).
    destruct (mk x i); try reflexivity. discriminate Hb.
  Qed.
End Generic.

(* the state a derivative name d<s>_dt belongs to, as Ode.sorted_states computes it *)
Definition st_of (n : string) : string := match deriv_state n with Some s => s | None => "" end.

Lemma sorted_states_eq o :
  sorted_states o =
  match sorted_names o false with
  | Some l => Some (map st_of (filter (is_deriv_name o) l))
  | None => None
  end.
Proof. reflexivity. Qed.

(* x is a scalar formal of the generated function: t, time and, in a function that takes it, dt *)
Definition resv (wd : bool) (x : string) : bool := (wd && String.eqb x "dt") || reserved_time x.

Lemma reserved_mem {T} (inp : inputs T) wd x : mem x (reserved inp wd) = resv wd x.
Proof.
  unfold reserved, resv, reserved_time, env0.
  case wd; cbn [keys map app fst mem andb]; case (String.eqb x "time"); reflexivity.
Qed.

Lemma keep_used o ru' n a y :
  find_assign o n = Some a -> In y (vars (a_expr a)) -> condition o ru' y = true.
Proof.
  intros Hfa Hy. unfold condition. case ru'; [|reflexivity].
  apply (dep_is_used o n), (deps_of_In o n a y Hfa), Hy.
Qed.

Lemma a_expr_of_eq o n a : find_assign o n = Some a -> a_expr_of o n = a_expr a.
Proof. intros H. unfold a_expr_of. rewrite H. reflexivity. Qed.

Lemma is_euler_update n : deriv_name_of (st_of n) = n -> is_euler (st_of n) (euler_update n) = true.
Proof.
  intros E. unfold euler_update. fold (st_of n). cbn [is_euler is_var is_dt_mul]. rewrite E, !String.eqb_refl. reflexivity.
Qed.

(* the bodies that run through the whole order are one loop: a let per name and, after a selected name,
   the statements that use it; the slot counter advances at each selected name *)
Fixpoint gen_body (o : ode) (sel : string -> bool) (tail : nat -> string -> list stmt) (l : list string)
  (idx : nat) : list stmt :=
  match l with
  | [] => []
  | n :: l' =>
      SLet n (a_expr_of o n) ::
      if sel n then tail idx n ++ gen_body o sel tail l' (S idx) else gen_body o sel tail l' idx
  end.

Definition store_of (upd : string -> expr) (i : nat) (n : string) : list stmt := [SStore i (upd n)].

Lemma rhs_body_gen o l : forall idx, rhs_body o l idx = gen_body o (is_deriv_name o) (store_of EVar) l idx.
Proof. induction l as [|n l IH]; intros idx; simpl; [reflexivity|]. case (is_deriv_name o n); rewrite IH; reflexivity. Qed.
Lemma euler_body_gen o l : forall idx, euler_body o l idx = gen_body o (is_deriv_name o) (store_of euler_update) l idx.
Proof. induction l as [|n l IH]; intros idx; simpl; [reflexivity|]. case (is_deriv_name o n); rewrite IH; reflexivity. Qed.
Lemma monitor_body_gen o l : forall idx, monitor_body o l idx = gen_body o (fun _ => true) (store_of EVar) l idx.
Proof. induction l as [|n l IH]; intros idx; simpl; [reflexivity|]. rewrite IH. reflexivity. Qed.

Lemma gen_body_stores o sel tail (upd : nat -> string -> expr) i :
  (forall j n, stores_at i (tail j n) = if Nat.eqb i j then [upd j n] else []) ->
  forall l idx,
  stores_at i (gen_body o sel tail l idx) =
  if Nat.leb idx i then match nth_error (filter sel l) (i - idx) with Some n => [upd i n] | None => [] end else [].
Proof.
  intros Ht. induction l as [|n l IH]; intros idx.
  - simpl. case (Nat.leb idx i), (i - idx); reflexivity.
  - cbn [gen_body filter]. change (stores_at i (SLet n (a_expr_of o n) :: ?b)) with (stores_at i b).
    case (sel n); [|apply IH]. rewrite (stores_at_app i), Ht, IH.
    case (Nat.eqb_spec i idx); [intros ->|intros Hne].
    + rewrite Nat.sub_diag, Nat.leb_refl, (proj2 (Nat.leb_gt (S idx) idx)) by lia. reflexivity.
    + case (Nat.leb_spec idx i); intros H.
      * rewrite (proj2 (Nat.leb_le (S idx) i)), (sub_lt_S idx i) by lia. reflexivity.
      * rewrite (proj2 (Nat.leb_gt (S idx) i)) by lia. reflexivity.
Qed.

Section Loop.
  Context {T : Type} (o1 o : ode) (ss : list string) (inp : inputs T) (wd : bool).
  Variables (sel : string -> bool) (tail : nat -> string -> list stmt).
  Notation vb := (valid_body o ss inp wd).
  (* the loop runs over the assignments of o1; the validator may know more assignments than these *)
  Hypothesis Hsub : forall n a, find_assign o1 n = Some a -> find_assign o n = Some a.

  Definition tail_binds (n y : string) : Prop := sel n = true /\ exists i, In y (flat_map binds (tail i n)).

  Lemma gen_body_valid nret : forall l d idx,
    emits o1 d l ->
    (forall n y, In n l -> tail_binds n y ->
       ~ In y d /\ ~ In y l /\ forall m, In m l -> tail_binds m y -> m = n) ->
    (forall n i d', In n l -> sel n = true -> i < nret ->
        (forall y, In y (n :: d) -> In y d') -> (forall y, In y (vars (a_expr_of o1 n)) -> In y d') ->
        (forall y, In y (flat_map binds (tail i n)) -> ~ In y d') ->
        vb nret d' (tail i n) = true) ->
    idx + length (filter sel l) <= nret ->
    vb nret d (gen_body o1 sel tail l idx) = true.
  Proof.
    induction l as [|n l IH]; intros d idx He Hnew Ht Hlen; [reflexivity|].
    pose proof (emits_cons o1 d n l He) as ((a & Hfa & Hn & Ha) & Hl).
    assert (Hnl : ~ In n l) by exact (proj1 (proj1 (NoDup_cons_iff n l) (proj1 He))).
    cbn [gen_body valid_body binds app].
    rewrite (a_expr_of_eq o1 n a Hfa), (ok_let o ss inp wd nret d n a (Hsub n a Hfa) Hn Ha). cbn [andb].
    (* the rest of the list, from any d' that adds to n :: d only names the tail after n binds *)
    assert (Hrest : forall d' idx',
              (forall y, In y (n :: d) -> In y d') -> (forall y, In y d' -> In y (n :: d) \/ tail_binds n y) ->
              idx' + length (filter sel l) <= nret -> vb nret d' (gen_body o1 sel tail l idx') = true).
    { intros d' idx' Hinc Hsup Hlen'. apply IH; [| | |exact Hlen'].
      - apply Hl; [exact Hinc|]. intros m Hm Hc. pose proof (Hsup m Hc) as [H|H]; [exact H|].
        exfalso. apply (proj1 (proj2 (Hnew n m (or_introl eq_refl) H))). right. exact Hm.
      - intros m y Hm Hy. pose proof (Hnew m y (or_intror Hm) Hy) as (H1 & H2 & H3). split; [|split].
        + intros Hc. pose proof (Hsup y Hc) as [[<-|H]|H]; [apply H2; left; reflexivity|exact (H1 H)|].
          apply Hnl. rewrite (H3 n (or_introl eq_refl) H). exact Hm.
        + intros Hc. apply H2. right. exact Hc.
        + intros m' Hm'. apply H3. right. exact Hm'.
      - intros m i d'' Hm Hs Hi Hd''. apply Ht; [right; exact Hm|exact Hs|exact Hi|].
        intros y [<-|Hy]; apply Hd''; [left; reflexivity|right; apply Hinc; right; exact Hy]. }
    cbn [filter] in Hlen. destruct (sel n) eqn:En.
    - cbn [length] in Hlen. rewrite Nat.add_succ_r in Hlen.
      rewrite valid_body_app, Ht; [|left; reflexivity|exact En|exact (Nat.le_lt_trans _ _ _ (Nat.le_add_r idx _) Hlen)|auto| |].
      + apply Hrest; [intros y Hy; apply defs_after_In; left; exact Hy| |exact Hlen].
        intros y Hy. apply defs_after_In in Hy. destruct Hy as [Hy|Hy]; [left; exact Hy|right].
        split; [exact En|exists idx; exact Hy].
      + rewrite (a_expr_of_eq o1 n a Hfa). intros y Hy. right. exact (Ha y Hy).
      + intros y Hy Hc. pose proof (Hnew n y (or_introl eq_refl) (conj En (ex_intro _ idx Hy))) as (Hd & Hl' & _).
        destruct Hc as [<-|Hc]; [apply Hl'; left; reflexivity|exact (Hd Hc)].
    - apply Hrest; [auto|intros y Hy; left; exact Hy|exact Hlen].
  Qed.
End Loop.

Lemma prologue_defs_g {T} o wd ss (inp : inputs T) sk pk y :
  In y (defs_after (prologue o ss sk pk) (reserved inp wd)) <->
  resv wd y = true \/ (sk y = true /\ In y ss) \/ (pk y = true /\ In y (param_names o)) \/ In y (missing_names o).
Proof.
  unfold prologue. rewrite 2 defs_after_app, 3 unpack_defs by reflexivity.
  rewrite <- (reserved_mem inp). split.
  - intros [[[H%mem_In|H]|H]|[_ H]]; auto.
  - intros [H%mem_In|[H|[H|H]]]; auto.
Qed.

Lemma prologue_no_store_g o ss sk pk j : stores_at j (prologue o ss sk pk) = [].
Proof.
  unfold prologue. rewrite 2 stores_at_app, 3 unpack_no_store by reflexivity. reflexivity.
Qed.

Section PP.
  (* the part that needs only the slot table ss.  The lemmas are general in the model (hence _g): MirrorRL
     uses them at [extend_lin o] as well.  W1: the names of states, parameters and assignments are pairwise
     distinct; W2: none of them is a scalar formal; W3: the slots are the states; W5: no missing variable is
     a scalar formal.  No slot occurs twice (a lemma in Section Mirror, where ss comes from the order). *)
  Context {T : Type} (o : ode) (wd : bool) (ss : list string) (inp : inputs T).
  Hypothesis W1 : NoDup (all_names o).
  Hypothesis W2 : forall x, In x (all_names o) -> resv wd x = false.
  Hypothesis W3 : forall s, In s ss <-> In s (map d_name (o_states o)).
  Hypothesis ss_nodup : NoDup ss.
  Hypothesis W5 : forall x, In x (missing_names o) -> resv wd x = false.

  Let snames := map d_name (o_states o).
  Let pnames := map d_name (o_params o).
  Let anames := map a_name (assigns o).

  Lemma nd_parts_g :
    NoDup snames /\ NoDup pnames /\ NoDup anames
    /\ (forall x, In x snames -> ~ In x pnames) /\ (forall x, In x snames -> ~ In x anames)
    /\ (forall x, In x pnames -> ~ In x anames).
  Proof.
    assert (H : NoDup (snames ++ pnames ++ anames)) by exact W1.
    pose proof (NoDup_app_elim _ _ H) as (H1 & H2 & H3).
    pose proof (NoDup_app_elim _ _ H2) as (H4 & H5 & H6).
    repeat split; try assumption.
    - intros x Hx Hc. apply (H3 x Hx). apply in_or_app. left. exact Hc.
    - intros x Hx Hc. apply (H3 x Hx). apply in_or_app. right. exact Hc.
  Qed.

  Lemma anames_nodup_g : NoDup anames.
  Proof. exact (proj1 (proj2 (proj2 nd_parts_g))). Qed.

  Notation vb := (valid_body o ss inp wd).
  Notation d0 := (reserved inp wd).

  Lemma is_assign_false_g x : ~ In x anames -> is_assign o x = false.
  Proof. intros H. unfold is_assign. rewrite (find_assign_None o x H). reflexivity. Qed.

  Lemma missing_unknown_g x : In x (missing_names o) -> ~ In x (all_names o).
  Proof.
    intros H. apply missing_names_spec in H. destruct H as [_ H]. rewrite known_symbol_eq in H.
    apply orb_false_iff in H. apply mem_false_In, H.
  Qed.

  Lemma tables_g :
    NoDup (param_names o) /\ NoDup (missing_names o)
    /\ (forall x, In x ss -> ~ In x (param_names o))
    /\ (forall x, In x (missing_names o) -> ~ In x ss /\ ~ In x (param_names o))
    /\ forall x, In x ss \/ In x (param_names o) \/ In x (missing_names o) ->
                 mem x d0 = false /\ is_assign o x = false.
  Proof.
    pose proof nd_parts_g as (_ & Hp & _ & Hsp & Hsa & Hpa).
    split; [apply sort_names_NoDup, Hp|]. split; [apply sort_names_NoDup, dedup_NoDup|]. split; [|split].
    - intros x Hx Hc. apply W3 in Hx. apply param_names_In in Hc. exact (Hsp x Hx Hc).
    - intros x Hx. split; intros Hc; apply (missing_unknown_g x Hx).
      + apply all_names_In. left. apply W3, Hc.
      + apply all_names_In. right. left. apply (proj1 (param_names_In o x)), Hc.
    - intros x Hx. rewrite reserved_mem.
      destruct Hx as [Hx|[Hx|Hx]]; [apply W3 in Hx|apply param_names_In in Hx|].
      + split; [apply W2, all_names_In; left; exact Hx|apply is_assign_false_g, Hsa, Hx].
      + split; [apply W2, all_names_In; right; left; exact Hx|apply is_assign_false_g, Hpa, Hx].
      + split; [exact (W5 x Hx)|apply is_assign_false_g]. intros Hc.
        apply (missing_unknown_g x Hx), all_names_In. right. right. exact Hc.
  Qed.

  Lemma prologue_valid_g sk pk nr : vb nr d0 (prologue o ss sk pk) = true.
  Proof.
    pose proof tables_g as (Hp & Hm & Hsp & Hms & Hfree).
    (* the checks the three unpacking statements share *)
    assert (Hok : forall x d, In x ss \/ In x (param_names o) \/ In x (missing_names o) -> ~ In x d ->
                    negb (mem x d) && negb (mem x d0) && negb (is_assign o x) = true).
    { intros x d Hx Hd. pose proof (Hfree x Hx) as [-> ->]. rewrite (proj2 (mem_false_In x d) Hd). reflexivity. }
    assert (H0 : forall x, In x ss \/ In x (param_names o) \/ In x (missing_names o) -> ~ In x d0)
      by (intros x Hx; apply mem_false_In, Hfree, Hx).
    unfold prologue. rewrite 2 valid_body_app. apply andb_true_intro. split; [|apply andb_true_intro; split].
    - (* states *)
      apply unpack_valid; [reflexivity|exact ss_nodup| |intros x Hx; apply H0; left; exact Hx].
      intros x i d Hx Hi Hd. unfold ok_stmt. rewrite Hok, Hi; [apply Nat.eqb_refl|left; exact Hx|exact Hd].
    - (* parameters: none is a state *)
      apply unpack_valid; [reflexivity|exact Hp| |].
      + intros x i d Hx Hi Hd.
        unfold ok_stmt. rewrite Hok, Hi, (proj2 (mem_false_In x ss) (fun H => Hsp x H Hx));
          [apply Nat.eqb_refl|right; left; exact Hx|exact Hd].
      + intros x Hx Hc. apply unpack_defs in Hc; [|reflexivity].
        destruct Hc as [Hc|[_ Hc]]; [exact (H0 x (or_intror (or_introl Hx)) Hc)|exact (Hsp x Hc Hx)].
    - (* missing variables: none is a state or a parameter *)
      apply unpack_valid; [reflexivity|exact Hm| |].
      + intros x i d Hx Hi Hd. pose proof (Hms x Hx) as [Hns Hnp].
        unfold ok_stmt. rewrite Hok, Hi, (proj2 (mem_false_In x ss) Hns), (proj2 (mem_false_In x _) Hnp);
          [apply Nat.eqb_refl|right; right; exact Hx|exact Hd].
      + intros x Hx Hc. pose proof (Hms x Hx) as [Hns Hnp].
        apply unpack_defs in Hc; [|reflexivity]. destruct Hc as [Hc|[_ Hc]]; [|exact (Hnp Hc)].
        apply unpack_defs in Hc; [|reflexivity]. destruct Hc as [Hc|[_ Hc]]; [|exact (Hns Hc)].
        exact (H0 x (or_intror (or_intror Hx)) Hc).
  Qed.

  Lemma fun_valid_g sk pk body ok name args nr :
    vb nr (defs_after (prologue o ss sk pk) d0) body = true ->
    (forall i, i < nr -> exists e, stores_at i body = [e] /\ ok i e = true) ->
    valid_fun o ss inp wd {| f_name := name; f_args := args; f_nret := nr;
                             f_body := prologue o ss sk pk ++ body |} ok = true.
  Proof.
    intros Hb Hs. unfold valid_fun. cbn [f_nret f_body]. rewrite valid_body_app, (prologue_valid_g sk pk nr), Hb.
    apply slots_ok_spec. intros i Hi. rewrite stores_at_app, prologue_no_store_g. exact (Hs i Hi).
  Qed.

  Lemma prologue_fresh_g sk pk x : In x anames -> ~ In x (defs_after (prologue o ss sk pk) d0).
  Proof.
    pose proof nd_parts_g as (_ & _ & _ & _ & Hsa & Hpa). intros Hx Hc.
    assert (Hall : In x (all_names o)) by (apply all_names_In; right; right; exact Hx).
    apply prologue_defs_g in Hc. destruct Hc as [Hc|[[_ Hc]|[[_ Hc]|Hc]]].
    - rewrite (W2 x Hall) in Hc. discriminate.
    - apply W3 in Hc. exact (Hsa x Hc Hx).
    - apply param_names_In in Hc. exact (Hpa x Hc Hx).
    - exact (missing_unknown_g x Hc Hall).
  Qed.

  Lemma reserved_free_g : reserved_free o inp wd = true.
  Proof.
    apply forallb_forall. intros r Hr. apply mem_In in Hr. apply negb_true_iff, is_assign_false_g.
    intros Hc. rewrite reserved_mem, W2 in Hr; [discriminate|]. apply all_names_In. right. right. exact Hc.
  Qed.

  Lemma states_clean_g : states_clean o ss inp wd = true.
  Proof.
    apply forallb_forall. intros s Hs. apply W3 in Hs. pose proof nd_parts_g as (_ & _ & _ & _ & Hsa & _).
    rewrite (is_assign_false_g s (Hsa s Hs)), reserved_mem, W2; [reflexivity|]. apply all_names_In. left. exact Hs.
  Qed.
End PP.

Section Requests.
  (* req: the requested names, each with its slot.  R2: the slots are below the number of requests;
     R3: no slot is given twice *)
  Context {T : Type} (o : ode) (ss : list string) (inp : inputs T) (wd : bool).
  Variable req : list (string * nat).
  Hypothesis R2 : forall x i, lookup x req = Some i -> i < length req.
  Hypothesis R3 : forall x y i, lookup x req = Some i -> lookup y req = Some i -> x = y.
  Notation NN := (length req).
  Notation vb := (valid_body o ss inp wd).

  Definition rq_store (x : string) : list stmt :=
    match lookup x req with Some i => [SStore i (EVar x)] | None => [] end.
  Definition isreq (x : string) : bool := match lookup x req with Some _ => true | None => false end.
  Definition creq (l : list string) : nat := length (filter isreq l).

  Lemma isreq_keys x : isreq x = true -> In x (keys req).
  Proof.
    unfold isreq. destruct (lookup x req) as [i|] eqn:E; [|discriminate]. intros _. exact (lookup_keys req x i E).
  Qed.

  Lemma rq_store_ok d x : (forall i, lookup x req = Some i -> In x d) ->
    vb NN d (rq_store x) = true /\ defs_after (rq_store x) d = d.
  Proof.
    intros Hx. unfold rq_store. destruct (lookup x req) as [i|] eqn:E; [|split; reflexivity].
    split; [|reflexivity]. cbn [valid_body]. rewrite ok_store; [reflexivity|exact (R2 x i E)|].
    intros y [<-|[]]. exact (Hx i eq_refl).
  Qed.

  Lemma mv_loop_valid l : forall d n, emits o d l -> vb NN d (mv_loop o req l n NN) = true.
  Proof.
    induction l as [|x l IH]; intros d n He; [reflexivity|].
    pose proof (emits_cons o d x l He) as ((a & Hfa & Hn & Ha) & Hl).
    pose proof (rq_store_ok (x :: d) x (fun _ _ => or_introl eq_refl)) as [H1 H2].
    pose proof (ok_let o ss inp wd NN d x a Hfa Hn Ha) as Hlet. rewrite <- (a_expr_of_eq o x a Hfa) in Hlet.
    cbn [mv_loop]. fold (rq_store x). case (Nat.leb NN _); cbn [app valid_body binds]; rewrite Hlet.
    - exact H1.
    - rewrite valid_body_app, H1, H2. apply IH, Hl; auto.
  Qed.

  (* the loop's counter after y *)
  Lemma creq_snoc A y : creq (A ++ [y]) = match lookup y req with Some _ => S (creq A) | None => creq A end.
  Proof.
    unfold creq, isreq. rewrite filter_app, app_length. cbn [filter].
    case (lookup y req); [intros _; apply Nat.add_1_r|apply Nat.add_0_r].
  Qed.

  Lemma rq_stores_length L : length (flat_map rq_store L) = creq L.
  Proof.
    induction L as [|x L IH]; [reflexivity|]. cbn [flat_map]. rewrite app_length, IH.
    unfold rq_store, creq, isreq. cbn [filter]. case (lookup x req); reflexivity.
  Qed.

  (* once NN requested names are among A, every requested name is: no more names are requested than
     there are slots *)
  Lemma requested_within A x : NoDup A -> NN <= creq A -> In x (keys req) -> In x A.
  Proof.
    intros Hnd Hge Hx. apply (filter_In isreq x A).
    apply (NoDup_length_incl (l' := keys req) (NoDup_filter isreq Hnd)); [unfold keys; rewrite map_length; exact Hge| |exact Hx].
    intros y Hy. apply isreq_keys. exact (proj2 (proj1 (filter_In isreq y A) Hy)).
  Qed.

  Lemma rq_store_at i x y : lookup x req = Some i ->
    stores_at i (rq_store y) = if String.eqb y x then [EVar x] else [].
  Proof.
    intros Hx. unfold rq_store, stores_at. case (String.eqb_spec y x); [intros ->|intros Hne].
    - rewrite Hx. cbn [flat_map]. rewrite Nat.eqb_refl. reflexivity.
    - destruct (lookup y req) as [j|] eqn:Ey; [|reflexivity]. cbn [flat_map].
      case (Nat.eqb_spec i j); [intros ->|reflexivity]. destruct (Hne (R3 y x j Ey Hx)).
  Qed.

  Lemma rq_stores_at i x L : lookup x req = Some i -> NoDup L ->
    stores_at i (flat_map rq_store L) = if mem x L then [EVar x] else [].
  Proof.
    intros Hx Hnd. induction L as [|y L IH]; [reflexivity|].
    apply NoDup_cons_iff in Hnd. destruct Hnd as [Hy Hnd']. cbn [flat_map].
    rewrite stores_at_app, (rq_store_at i x y Hx), (IH Hnd'), mem_cons, (String.eqb_sym x y).
    case (String.eqb_spec y x); [intros ->|reflexivity].
    rewrite (proj2 (mem_false_In x L) Hy). reflexivity.
  Qed.

  (* what is stored into the slot i of a requested name x: after the stores for A, the loop over l adds
     that of x if x is in l; where it stops early, all NN requested names are written, x among them *)
  Lemma mv_stores i x : lookup x req = Some i -> forall l A, NoDup (A ++ l) ->
    stores_at i (flat_map rq_store A) ++ stores_at i (mv_loop o req l (creq A) NN) = if mem x (A ++ l) then [EVar x] else [].
  Proof.
    intros Hx. induction l as [|y l IH]; intros A Hnd.
    - rewrite app_nil_r in Hnd |- *. cbn [mv_loop]. rewrite app_nil_r. exact (rq_stores_at i x A Hx Hnd).
    - change (A ++ y :: l) with (A ++ [y] ++ l) in Hnd |- *. rewrite app_assoc in Hnd |- *. cbn [mv_loop]. fold (rq_store y).
      rewrite <- creq_snoc.
      (* the stores for A and the block of y are the stores for A ++ [y] *)
      assert (E : stores_at i (flat_map rq_store A) ++ stores_at i (SLet y (a_expr_of o y) :: rq_store y)
                  = stores_at i (flat_map rq_store (A ++ [y]))).
      { rewrite flat_map_app, stores_at_app. cbn [flat_map]. rewrite app_nil_r. reflexivity. }
      case (Nat.leb_spec NN (creq (A ++ [y]))); [intros Hge|intros _; rewrite stores_at_app, app_assoc, E; exact (IH (A ++ [y]) Hnd)].
      pose proof (proj1 (NoDup_app_elim _ _ Hnd)) as Hnd1.
      rewrite E, (rq_stores_at i x _ Hx Hnd1), (mem_app x (A ++ [y])).
      rewrite (proj2 (mem_In x _) (requested_within _ x Hnd1 Hge (lookup_keys req x i Hx))). reflexivity.
  Qed.
End Requests.

Section Mirror.
  Context {T : Type} (o : ode) (ru wd : bool) (ss ord : list string) (inp : inputs T).
  Hypothesis Hss : sorted_states o = Some ss.
  Hypothesis Hord : sorted_names o ru = Some ord.
  (* well-formedness of the loaded model: W1, W2, W3, W5 as in Section PP; W4: a derivative is named
     after its state *)
  Hypothesis W1 : NoDup (all_names o).
  Hypothesis W2 : forall x, In x (all_names o) -> resv wd x = false.
  Hypothesis W3 : forall s, In s ss <-> In s (map d_name (o_states o)).
  Hypothesis W4 : forall n, In n (map a_name (o_derivs o)) -> deriv_name_of (st_of n) = n.
  Hypothesis W5 : forall x, In x (missing_names o) -> resv wd x = false.

  Notation snames := (map d_name (o_states o)).
  Notation pnames := (map d_name (o_params o)).
  Notation anames := (map a_name (assigns o)).
  Notation dl := (filter (is_deriv_name o) ord).
  Notation nd_parts := (nd_parts_g o W1).

  Lemma inter_deriv_disjoint x : In x (map a_name (o_derivs o)) -> is_inter_name o x = false.
  Proof.
    intros Hx. pose proof (anames_nodup_g o W1) as Ha. unfold assigns in Ha. rewrite map_app in Ha.
    unfold is_inter_name. apply mem_false_In. intros Hc. exact (proj2 (proj2 (NoDup_app_elim _ _ Ha)) x Hc Hx).
  Qed.

  Lemma ss_eq : ss = map st_of dl.
  Proof.
    pose proof Hss as H1. pose proof Hord as H2. rewrite sorted_states_eq in H1.
    destruct ru eqn:Eru.
    - rewrite sorted_names_true in H2. destruct (sorted_names o false) as [l|]; [|discriminate].
      injection H2 as <-. injection H1 as <-. rewrite filter_filter_absorb; [reflexivity|].
      intros x Hx. unfold is_deriv_name in Hx. apply mem_In in Hx.
      rewrite (inter_deriv_disjoint x Hx). reflexivity.
    - rewrite H2 in H1. injection H1 as <-. reflexivity.
  Qed.

  Lemma ord_nodup : NoDup ord.
  Proof. exact (proj1 (sorted_names_sound o ru ord Hord)). Qed.

  Lemma ord_in n : In n ord -> In n anames.
  Proof. intros Hn. apply all_assign_names_In, (proj1 (proj2 (sorted_names_sound o ru ord Hord))), Hn. Qed.

  Lemma ord_all n : In n anames -> ru = false \/ is_inter_name o n = false \/ used o n = true -> In n ord.
  Proof. intros Hn. apply (proj1 (proj2 (proj2 (sorted_names_sound o ru ord Hord)))), all_assign_names_In, Hn. Qed.

  Lemma ord_topo pre n post : ord = pre ++ n :: post -> forall d, In d (deps_of o n) -> In d anames -> In d pre.
  Proof.
    intros E d Hd Hda. apply (proj2 (proj2 (proj2 (sorted_names_sound o ru ord Hord))) pre n post E d Hd), all_assign_names_In, Hda.
  Qed.

  Lemma dl_derivs n : In n dl <-> In n (map a_name (o_derivs o)).
  Proof.
    unfold is_deriv_name. split; intros H.
    - apply filter_In in H. apply mem_In, H.
    - apply filter_In. split; [|apply mem_In; exact H]. apply ord_all.
      + unfold assigns. rewrite map_app. apply in_or_app. right. exact H.
      + right. left. apply inter_deriv_disjoint. exact H.
  Qed.

  (* discharges the hypothesis of that name in Section PP *)
  Lemma ss_nodup : NoDup ss.
  Proof.
    rewrite ss_eq. apply NoDup_map_inj_on; [|apply NoDup_filter; exact ord_nodup].
    intros x y Hx Hy E. apply dl_derivs in Hx. apply dl_derivs in Hy.
    rewrite <- (W4 x Hx), <- (W4 y Hy), E. reflexivity.
  Qed.

  Lemma ss_length : length ss = length (state_names o).
  Proof.
    unfold state_names. rewrite sort_names_length.
    apply Permutation_length. apply NoDup_Permutation; [exact ss_nodup|exact (proj1 nd_parts)|exact W3].
  Qed.

  Lemma dl_length : length dl = length (state_names o).
  Proof. rewrite <- ss_length, ss_eq, map_length. reflexivity. Qed.

  Notation vb := (valid_body o ss inp wd).
  Notation d0 := (reserved inp wd).
  Notation prologue_defs := (prologue_defs_g o wd ss inp).

  Section Body.
    Variables sk pk : string -> bool.
    Hypothesis sk_ok : forall n a y, find_assign o n = Some a -> In y (vars (a_expr a)) -> sk y = true.
    Hypothesis pk_ok : forall n a y, find_assign o n = Some a -> In y (vars (a_expr a)) -> pk y = true.
    Notation D := (defs_after (prologue o ss sk pk) d0).

    (* a name an assignment reads is a parameter or state the prologue unpacked, t or time, an
       assignment (which the order puts first), or a missing variable *)
    Lemma ord_deps pre n post :
      ord = pre ++ n :: post ->
      exists a, find_assign o n = Some a /\ forall y, In y (vars (a_expr a)) -> In y D \/ In y pre.
    Proof.
      intros E. assert (Hn : In n ord) by (rewrite E; apply in_elt).
      pose proof (find_assign_Some o n (ord_in n Hn)) as (a & Hfa & _ & Haa). exists a. split; [exact Hfa|].
      intros y Hy. destruct (known_symbol o y) eqn:Ek.
      - apply known_symbol_iff in Ek. destruct Ek as [Es|[Ep|[Ea|Et]]].
        + left. apply prologue_defs. right. left. split; [exact (sk_ok n a y Hfa Hy)|apply W3; exact Es].
        + left. apply prologue_defs. right. right. left. split; [exact (pk_ok n a y Hfa Hy)|apply param_names_In; exact Ep].
        + right. apply (ord_topo pre n post E y); [|exact Ea].
          apply (deps_of_In o n a y Hfa). exact Hy.
        + left. apply prologue_defs. left. unfold resv. rewrite Et. apply orb_true_r.
      - left. apply prologue_defs. right. right. right. apply missing_names_spec.
        split; [exists a; split; assumption|exact Ek].
    Qed.

    Lemma ord_emits : emits o D ord.
    Proof.
      split; [exact ord_nodup|]. split; [|exact ord_deps].
      intros n Hn. apply (prologue_fresh_g o wd ss inp W1 W2 W3), ord_in, Hn.
    Qed.

    Lemma whole_fun_valid sel upd ok name args nr :
      (forall n, In n ord -> sel n = true -> incl (vars (upd n)) (n :: D)) ->
      length (filter sel ord) = nr ->
      (forall i, i < nr -> ok i (upd (nth i (filter sel ord) "")) = true) ->
      valid_fun o ss inp wd {| f_name := name; f_args := args; f_nret := nr;
                               f_body := prologue o ss sk pk ++ gen_body o sel (store_of upd) ord 0 |} ok = true.
    Proof.
      intros Hupd Hlen Hok. apply (fun_valid_g o wd ss inp W1 W2 W3 ss_nodup W5).
      - apply (gen_body_valid o o ss inp wd sel _ (fun _ _ H => H) nr);
          [exact ord_emits|intros n y _ (_ & i & [])| |exact (Nat.eq_le_incl _ _ Hlen)].
        intros n i d' Hn Hs Hi Hsub _ _. cbn [store_of valid_body]. rewrite ok_store; [reflexivity|exact Hi|].
        intros y Hy. apply Hsub, (Hupd n Hn Hs), Hy.
      - intros i Hi. rewrite (gen_body_stores o sel _ (fun _ => upd)).
        + cbn [Nat.leb]. rewrite Nat.sub_0_r, (nth_error_nth' _ "") by (rewrite Hlen; exact Hi).
          eexists. split; [reflexivity|exact (Hok i Hi)].
        + intros j n. unfold stores_at, store_of. cbn [flat_map]. apply app_nil_r.
    Qed.
  End Body.

  Lemma deriv_slot i : i < length (state_names o) ->
    let n := nth i (filter (is_deriv_name o) ord) "" in
    nth_error ss i = Some (st_of n) /\ deriv_name_of (st_of n) = n /\ is_deriv_name o n = true.
  Proof.
    intros Hi. rewrite <- dl_length in Hi.
    assert (Hd : In (nth i dl "") (map a_name (o_derivs o))) by (apply dl_derivs, nth_In; exact Hi).
    split; [|split; [exact (W4 _ Hd)|apply mem_In; exact Hd]].
    rewrite ss_eq, nth_error_map, (nth_error_nth' dl "" Hi). reflexivity.
  Qed.

  Theorem gen_rhs_valid order f :
    gen_rhs o ru order = Some f -> valid_rhs o ss inp wd f = true.
  Proof.
    unfold gen_rhs. rewrite Hss, Hord. intros [= <-]. unfold valid_rhs. cbn [f_nret f_body].
    rewrite (proj2 (Nat.eqb_eq _ _) (eq_sym ss_length)), rhs_body_gen.
    apply whole_fun_valid; try (intros n a y; apply keep_used); [|exact dl_length|].
    - intros n _ _ y [<-|[]]. left. reflexivity.
    - intros i Hi. pose proof (deriv_slot i Hi) as (Hs & E & Hd).
      unfold ok_rhs. rewrite Hs, E. cbn [is_var]. rewrite String.eqb_refl. exact Hd.
  Qed.

  Theorem gen_euler_valid name order f :
    wd = true -> gen_euler o ru name order = Some f -> valid_euler o ss inp wd f = true.
  Proof.
    intros Hwd. unfold gen_euler. rewrite Hss, Hord. intros [= <-]. unfold valid_euler. cbn [f_nret f_body].
    rewrite (proj2 (Nat.eqb_eq _ _) (eq_sym ss_length)), euler_body_gen.
    apply whole_fun_valid; try (intros n a y; apply keep_used); try reflexivity; [|exact dl_length|].
    - intros n Hn Hsel. repeat apply incl_cons; [right; apply prologue_defs..|left; reflexivity|apply incl_nil_l].
      + right. left. split; [reflexivity|]. rewrite ss_eq. apply (in_map st_of dl n), filter_In. split; assumption.
      + left. unfold resv. rewrite Hwd. reflexivity.
    - intros i Hi. pose proof (deriv_slot i Hi) as (Hs & E & Hd).
      unfold ok_euler. rewrite Hs, E, (is_euler_update _ E). exact Hd.
  Qed.

  Lemma ord_length : ru = false -> length ord = length (o_inters o) + length (o_derivs o).
  Proof.
    intros Hru. rewrite <- app_length. fold (assigns o). rewrite <- (map_length a_name (assigns o)).
    apply Permutation_length. apply NoDup_Permutation; [exact ord_nodup|exact (anames_nodup_g o W1)|].
    intros n. split; [apply ord_in|]. intros Hn. apply ord_all; [exact Hn|left; exact Hru].
  Qed.

  Theorem gen_monitor_valid ru' order f :
    ru = false -> gen_monitor o ru' order = Some f -> valid_named o ss inp wd ord f = true.
  Proof.
    intros Hru. pose proof Hord as H0. rewrite Hru in H0.
    (* the validator does not look at the function's name *)
    unfold gen_monitor. generalize "monitor_values" as name. rewrite Hss, H0. intros name [= <-].
    unfold valid_named. cbn [f_nret f_body].
    rewrite <- (ord_length Hru), Nat.eqb_refl, monitor_body_gen.
    apply whole_fun_valid; try (intros n a y; apply keep_used); try reflexivity; [|rewrite filter_all; reflexivity|].
    - intros n _ _ y [<-|[]]. left. reflexivity.
    - intros i Hi. rewrite filter_all. unfold ok_name. rewrite (nth_error_nth' ord "" Hi). apply String.eqb_refl.
  Qed.

  Section Missing.
    (* req, R2, R3 as in Section Requests; tbl: the name that belongs in each slot.  R1: no name is
       requested twice; R4: a requested name is a state, a parameter or an assignment; T1, T2: tbl lists
       req by slot *)
    Variable req : list (string * nat).
    Variable ru' : bool.
    Variable tbl : list string.
    Hypothesis Hru : ru = false.
    Hypothesis R1 : NoDup (keys req).
    Hypothesis R2 : forall x i, lookup x req = Some i -> i < length req.
    Hypothesis R3 : forall x y i, lookup x req = Some i -> lookup y req = Some i -> x = y.
    Hypothesis R4 : forall x, In x (keys req) -> In x snames \/ In x pnames \/ In x anames.
    Hypothesis T1 : length tbl = length req.
    Hypothesis T2 : forall i x, nth_error tbl i = Some x -> lookup x req = Some i.

    Notation NN := (length req).
    Notation pkm := (fun x => condition o ru' x || mem x (keys req)).
    Notation decl := (state_names o ++ param_names o).
    Notation Dm := (defs_after (prologue o ss keep_all pkm) d0).

    (* the names that get a slot: declared ones, written first, then the assignments in order *)
    Lemma slots_nodup : NoDup (decl ++ ord).
    Proof.
      pose proof nd_parts as (Hs & Hp & _ & Hsp & Hsa & Hpa).
      apply NoDup_app_intro; [apply NoDup_app_intro; [exact (sort_names_NoDup _ Hs)|exact (sort_names_NoDup _ Hp)|]|exact ord_nodup|].
      - intros x Hx Hy. apply state_names_In in Hx. apply param_names_In in Hy. exact (Hsp x Hx Hy).
      - intros x Hx Hy. apply ord_in in Hy. apply in_app_or in Hx.
        destruct Hx as [Hx|Hx]; [apply state_names_In in Hx; exact (Hsa x Hx Hy)|apply param_names_In in Hx; exact (Hpa x Hx Hy)].
    Qed.

    Lemma requested_slot x : In x (keys req) -> In x (decl ++ ord).
    Proof.
      intros Hk. apply in_or_app. pose proof (R4 x Hk) as [Hs|[Hp|Ha]].
      - left. apply in_or_app. left. apply state_names_In. exact Hs.
      - left. apply in_or_app. right. apply param_names_In. exact Hp.
      - right. apply ord_all; [exact Ha|left; exact Hru].
    Qed.

    Lemma mv_decl_valid :
      vb NN Dm (flat_map (rq_store req) decl) = true /\ defs_after (flat_map (rq_store req) decl) Dm = Dm.
    Proof.
      apply flat_map_valid. intros x Hx. apply (rq_store_ok o ss inp wd req R2). intros i E. apply prologue_defs. right.
      apply in_app_or in Hx. destruct Hx as [Hx|Hx].
      - left. split; [reflexivity|]. apply W3, state_names_In, Hx.
      - right. left. split; [|exact Hx]. rewrite (proj2 (mem_In x (keys req)) (lookup_keys req x i E)). apply orb_true_r.
    Qed.

    Theorem gen_missing_valid order f :
      gen_missing_values o ru' req order = Some f -> valid_named o ss inp wd tbl f = true.
    (* R1 is not needed; it is named so that the closed statement keeps it as a hypothesis *)
    Proof using Hss Hord W1 W2 W3 W4 W5 Hru R1 R2 R3 R4 T1 T2.
      pose proof Hord as H0. rewrite Hru in H0.
      unfold gen_missing_values. generalize "missing_values" as name. rewrite Hss, H0. intros name [= <-].
      unfold valid_named. cbn [f_nret]. rewrite (proj2 (Nat.eqb_eq _ _) (eq_sym T1)).
      apply (fun_valid_g o wd ss inp W1 W2 W3 ss_nodup W5).
      - unfold mv_body, mv_decl_stores. fold (rq_store req). rewrite valid_body_app, (proj1 mv_decl_valid), (proj2 mv_decl_valid).
        apply (mv_loop_valid o ss inp wd req R2), ord_emits; [reflexivity|]. intros n a y H1 H2. rewrite (keep_used o ru' n a y H1 H2). reflexivity.
      - intros i Hi. destruct (nth_error_some_lt tbl i) as [x Ex]; [rewrite T1; exact Hi|].
        pose proof (T2 i x Ex) as Hx. exists (EVar x). split; [|unfold ok_name; rewrite Ex; apply String.eqb_refl].
        unfold mv_body, mv_decl_stores. fold (rq_store req). rewrite rq_stores_length, stores_at_app, (mv_stores o req R3 i x Hx ord decl slots_nodup).
        rewrite (proj2 (mem_In x _) (requested_slot x (lookup_keys req x i Hx))). reflexivity.
    Qed.
  End Missing.
End Mirror.

(* the well-formedness facts as one boolean, evaluated per model *)
Definition wf_gen (o : ode) (ss : list string) (wd : bool) : bool :=
  nodupb (all_names o)
  && forallb (fun x => negb (resv wd x)) (all_names o)
  && forallb (fun s => mem s (map d_name (o_states o))) ss
  && forallb (fun s => mem s ss) (map d_name (o_states o))
  && forallb (fun n => String.eqb (deriv_name_of (st_of n)) n) (map a_name (o_derivs o))
  && forallb (fun x => negb (resv wd x)) (missing_names o).

Lemma wf_gen_spec o ss wd :
  wf_gen o ss wd = true ->
  NoDup (all_names o)
  /\ (forall x, In x (all_names o) -> resv wd x = false)
  /\ (forall s, In s ss <-> In s (map d_name (o_states o)))
  /\ (forall n, In n (map a_name (o_derivs o)) -> deriv_name_of (st_of n) = n)
  /\ (forall x, In x (missing_names o) -> resv wd x = false).
Proof.
  unfold wf_gen. intros [[[[[H1 H2]%andb_prop H3]%andb_prop H4]%andb_prop H5]%andb_prop H6]%andb_prop.
  pose proof (fun f l => proj1 (@forallb_forall string f l)) as F.
  split; [apply nodupb_NoDup; exact H1|]. split; [|split; [|split]].
  - intros x Hx. apply negb_true_iff. exact (F _ _ H2 x Hx).
  - intros s. split; intros Hs; apply mem_In; [exact (F _ _ H3 s Hs)|exact (F _ _ H4 s Hs)].
  - intros n Hn. apply String.eqb_eq. exact (F _ _ H5 n Hn).
  - intros x Hx. apply negb_true_iff. exact (F _ _ H6 x Hx).
Qed.

Lemma wf_reserved_free {T} o ss wd (inp : inputs T) : wf_gen o ss wd = true -> reserved_free o inp wd = true.
Proof. intros Hwf. apply reserved_free_g. exact (proj1 (proj2 (wf_gen_spec o ss wd Hwf))). Qed.

Theorem mirror_rhs_correct {T} (N : NumOps T) (o : ode) ru order ss f (inp : inputs T) :
  sorted_states o = Some ss -> wf_gen o ss false = true ->
  gen_rhs o ru order = Some f ->
  sizes_ok o ss inp ->
  valid_rhs o ss inp false f = true
  /\ exists out,
      exec N f false inp = Some out
      /\ length out = length ss
      /\ forall i s, nth_error ss i = Some s ->
           exists v, nth_error out i = Some v /\ Sem N o ss inp false (deriv_name_of s) v.
Proof.
  intros Hss Hwf Hgen Hsz. pose proof (wf_gen_spec o ss false Hwf) as (W1 & W2 & W3 & W4 & W5).
  destruct (sorted_names o ru) as [ord|] eqn:Hord; [|unfold gen_rhs in Hgen; rewrite Hss, Hord in Hgen; discriminate].
  pose proof (gen_rhs_valid o ru false ss ord inp Hss Hord W1 W2 W3 W4 W5 order f Hgen) as Hv.
  exact (conj Hv (rhs_sound N o ss inp false f Hsz (wf_reserved_free o ss false inp Hwf) Hv)).
Qed.

Theorem mirror_monitor_correct {T} (N : NumOps T) (o : ode) ru order ss ord f (inp : inputs T) :
  sorted_states o = Some ss -> sorted_names o false = Some ord -> wf_gen o ss false = true ->
  gen_monitor o ru order = Some f ->
  sizes_ok o ss inp ->
  valid_named o ss inp false ord f = true
  /\ exists out,
      exec N f false inp = Some out
      /\ length out = length ord
      /\ forall i n, nth_error ord i = Some n ->
           exists v, nth_error out i = Some v /\ Sem N o ss inp false n v.
Proof.
  intros Hss Hord Hwf Hgen Hsz. pose proof (wf_gen_spec o ss false Hwf) as (W1 & W2 & W3 & W4 & W5).
  pose proof (gen_monitor_valid o false false ss ord inp Hss Hord W1 W2 W3 W4 W5 ru order f eq_refl Hgen) as Hv.
  exact (conj Hv (named_sound N o ss inp false ord f Hsz (wf_reserved_free o ss false inp Hwf) Hv)).
Qed.

Theorem mirror_euler_correct {T} (N : NumOps T) (o : ode) ru name order ss f (inp : inputs T) :
  CommOps N ->
  sorted_states o = Some ss -> wf_gen o ss true = true ->
  gen_euler o ru name order = Some f ->
  sizes_ok o ss inp ->
  valid_euler o ss inp true f = true
  /\ exists out,
      exec N f true inp = Some out
      /\ length out = length ss
      /\ forall i s, nth_error ss i = Some s ->
           exists sv fv,
             nth_error (in_states inp) i = Some sv
             /\ Sem N o ss inp true (deriv_name_of s) fv
             /\ nth_error out i = Some (add N sv (mul N (in_dt inp) fv)).
Proof.
  intros HC Hss Hwf Hgen Hsz. pose proof (wf_gen_spec o ss true Hwf) as (W1 & W2 & W3 & W4 & W5).
  destruct (sorted_names o ru) as [ord|] eqn:Hord; [|unfold gen_euler in Hgen; rewrite Hss, Hord in Hgen; discriminate].
  pose proof (gen_euler_valid o ru true ss ord inp Hss Hord W1 W2 W3 W4 W5 name order f eq_refl Hgen) as Hv.
  exact (conj Hv (euler_sound N o ss inp true f HC eq_refl Hsz (wf_reserved_free o ss true inp Hwf)
                   (states_clean_g o true ss inp W1 W2 W3) (ss_nodup o ru ss ord Hss Hord W1 W3 W4) Hv)).
Qed.

(* C13, missing_values: the requested names - states, parameters or assignments - in the requested slots *)
Theorem mirror_missing_correct {T} (N : NumOps T) (o : ode) ru order ss ord req tbl f (inp : inputs T) :
  sorted_states o = Some ss -> sorted_names o false = Some ord -> wf_gen o ss false = true ->
  NoDup (keys req) ->
  (forall x i, lookup x req = Some i -> i < length req) ->
  (forall x y i, lookup x req = Some i -> lookup y req = Some i -> x = y) ->
  (forall x, In x (keys req) -> In x (all_names o)) ->
  length tbl = length req ->
  (forall i x, nth_error tbl i = Some x -> lookup x req = Some i) ->
  gen_missing_values o ru req order = Some f ->
  sizes_ok o ss inp ->
  valid_named o ss inp false tbl f = true
  /\ exists out,
      exec N f false inp = Some out
      /\ length out = length tbl
      /\ forall i n, nth_error tbl i = Some n ->
           exists v, nth_error out i = Some v /\ Sem N o ss inp false n v.
Proof.
  intros Hss Hord Hwf R1 R2 R3 R4 T1 T2 Hgen Hsz.
  pose proof (wf_gen_spec o ss false Hwf) as (W1 & W2 & W3 & W4 & W5).
  pose proof (gen_missing_valid o false false ss ord inp Hss Hord W1 W2 W3 W4 W5 req ru tbl eq_refl R1 R2 R3
                (fun x Hx => proj1 (all_names_In o x) (R4 x Hx)) T1 T2 order f Hgen) as Hv.
  exact (conj Hv (named_sound N o ss inp false tbl f Hsz (wf_reserved_free o ss false inp Hwf) Hv)).
Qed.

Print Assumptions mirror_rhs_correct.
Print Assumptions mirror_euler_correct.
