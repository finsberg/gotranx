(* Perm.v — the model is a *set* of definitions: the statement order, the slot layouts and the generated rhs,
   monitor_values and explicit-Euler functions are invariant under any permutation of the lists the loaded model
   is made of (Partial: Codegen.gen_missing_values and MirrorRL.gen_rl are not covered).
   This is the common core of C09 (the iteration order of Python sets / frozensets, which
   varies with PYTHONHASHSEED, is exactly such a permutation) and C10 (the textual order of
   blocks, entries and lines only permutes those lists).  It rests on sorted() being a function of the set:
   String.leb is a total order (string_leb_trans), so sorting two permutations of a list gives one result
   (sort_names_perm_eq). *)
From GX Require Import Base Topo Ode Target Codegen.
From Coq Require Import Sorting.Sorted Permutation BinNat.
Open Scope string_scope.
Open Scope list_scope.

Lemma ascii_compare_trans_lt a b c :
  Ascii.compare a b = Lt -> Ascii.compare b c = Lt -> Ascii.compare a c = Lt.
Proof.
  unfold Ascii.compare. intros H1 H2. apply N.compare_lt_iff in H1, H2.
  apply N.compare_lt_iff. exact (N.lt_trans _ _ _ H1 H2).
Qed.

Lemma string_leb_trans a b c : String.leb a b = true -> String.leb b c = true -> String.leb a c = true.
Proof.
  unfold String.leb.
  revert b c; induction a as [|x a IH]; intros [|y b] [|z c]; simpl; intros H1 H2;
    try reflexivity; try discriminate.
  destruct (Ascii.compare x y) eqn:Exy.
  - apply Ascii.compare_eq_iff in Exy. subst y.
    destruct (Ascii.compare x z) eqn:Exz.
    + apply IH with b; assumption.
    + reflexivity.
    + discriminate H2.
  - destruct (Ascii.compare y z) eqn:Eyz.
    + apply Ascii.compare_eq_iff in Eyz. subst z. rewrite Exy. reflexivity.
    + rewrite (ascii_compare_trans_lt _ _ _ Exy Eyz). reflexivity.
    + discriminate H2.
  - discriminate H1.
Qed.

Lemma sorted_perm_unique (l l' : list string) :
  StronglySorted (fun a b => String.leb a b = true) l ->
  StronglySorted (fun a b => String.leb a b = true) l' ->
  Permutation l l' -> l = l'.
Proof.
  revert l'; induction l as [|x l IH]; intros l' Hs Hs' Hp.
  - apply Permutation_nil in Hp. subst. reflexivity.
  - destruct l' as [|y l']; [apply Permutation_sym, Permutation_nil in Hp; discriminate|].
    apply StronglySorted_inv in Hs, Hs'. destruct Hs as [Hsl Hx], Hs' as [Hsl' Hy].
    assert (x = y).
    { destruct (Permutation_in x Hp (or_introl eq_refl)) as [->|Hxin]; [reflexivity|].
      destruct (Permutation_in y (Permutation_sym Hp) (or_introl eq_refl)) as [->|Hyin]; [reflexivity|].
      rewrite Forall_forall in Hx, Hy. apply String.leb_antisym; auto. }
    subst y. f_equal. apply IH; auto. eapply Permutation_cons_inv; eauto.
Qed.

Lemma sort_names_sorted l : StronglySorted (fun a b => String.leb a b = true) (sort_names l).
Proof.
  apply StringSort.StronglySorted_sort. intros a b c. apply string_leb_trans.
Qed.

Theorem sort_names_perm_eq l l' : Permutation l l' -> sort_names l = sort_names l'.
Proof.
  intros H. apply sorted_perm_unique; try apply sort_names_sorted.
  eapply Permutation_trans; [apply Permutation_sym, sort_names_perm|].
  eapply Permutation_trans; [exact H|apply sort_names_perm].
Qed.

Lemma find_perm_unique (l l' : list assign) x :
  NoDup (map a_name l) -> Permutation l l' ->
  find (fun a => String.eqb (a_name a) x) l = find (fun a => String.eqb (a_name a) x) l'.
Proof.
  intros Hnd Hp. induction Hp; cbn [find map] in *; [reflexivity| | |].
  - destruct (String.eqb (a_name x0) x); [reflexivity|]. apply IHHp. apply NoDup_cons_iff in Hnd. apply Hnd.
  - destruct (String.eqb_spec (a_name y) x) as [Ey|], (String.eqb_spec (a_name x0) x) as [Ex|]; try reflexivity.
    apply NoDup_cons_iff in Hnd. destruct (proj1 Hnd). left. congruence.
  - rewrite IHHp1 by assumption. apply IHHp2.
    eapply Permutation_NoDup; [apply Permutation_map; exact Hp1|exact Hnd].
Qed.

Lemma NoDup_dedup_id (l : list string) : NoDup l -> dedup l = l.
Proof.
  induction 1 as [|x l Hx Hnd IH]; simpl; [reflexivity|].
  apply mem_false_In in Hx. rewrite Hx, IH. reflexivity.
Qed.

(* sorted_names sees a model only through these four observations *)
Lemma sorted_names_ext o o' ru :
  all_assign_names o = all_assign_names o' ->
  (forall x, deps_of o x = deps_of o' x) ->
  (forall x, is_inter_name o x = is_inter_name o' x) ->
  (forall x, used o x = used o' x) ->
  sorted_names o ru = sorted_names o' ru.
Proof.
  intros Hn Hd Hi Hu. unfold sorted_names. rewrite <- Hn.
  assert (Hg : forall names g, fold_left (fun g n => g_add g n (deps_of o n)) names g
                             = fold_left (fun g n => g_add g n (deps_of o' n)) names g).
  { induction names as [|n names IH]; intros g; simpl; [reflexivity|]. rewrite Hd. apply IH. }
  unfold build_graph. rewrite Hg. destruct (static_order _); [|reflexivity].
  destruct ru; [|reflexivity]. apply f_equal, filter_ext. intros n. rewrite Hi, Hu. reflexivity.
Qed.

Lemma sorted_states_ext o o' :
  sorted_names o false = sorted_names o' false ->
  (forall x, is_deriv_name o x = is_deriv_name o' x) ->
  sorted_states o = sorted_states o'.
Proof.
  intros Hs Hd. unfold sorted_states. rewrite Hs. destruct (sorted_names o' false); [|reflexivity].
  apply f_equal, f_equal, filter_ext, Hd.
Qed.

Lemma unpack_with_ext mk (k k' : string -> bool) names :
  (forall x, k x = k' x) -> unpack_with mk k names = unpack_with mk k' names.
Proof. intros H. apply flat_map_ext. intros ix. rewrite H. reflexivity. Qed.

(* two presentations of the same set of definitions *)
Record ode_equiv (o o' : ode) : Prop := {
  eq_states : Permutation (o_states o) (o_states o');
  eq_params : Permutation (o_params o) (o_params o');
  eq_inters : Permutation (o_inters o) (o_inters o');
  eq_derivs : Permutation (o_derivs o) (o_derivs o') }.

Definition unique_assign_names (o : ode) : Prop := NoDup (map a_name (assigns o)).

Section Invariance.
  Variables o o' : ode.
  Hypothesis E : ode_equiv o o'.
  Hypothesis U : unique_assign_names o.

  Lemma assigns_perm : Permutation (assigns o) (assigns o').
  Proof. apply Permutation_app; [apply (eq_inters _ _ E)|apply (eq_derivs _ _ E)]. Qed.

  Lemma find_assign_inv x : find_assign o x = find_assign o' x.
  Proof. apply find_perm_unique; [exact U|apply assigns_perm]. Qed.

  Lemma state_names_inv : state_names o = state_names o'.
  Proof. apply sort_names_perm_eq, Permutation_map, (eq_states _ _ E). Qed.
  Lemma param_names_inv : param_names o = param_names o'.
  Proof. apply sort_names_perm_eq, Permutation_map, (eq_params _ _ E). Qed.
  Lemma inter_names_inv : inter_names o = inter_names o'.
  Proof. apply sort_names_perm_eq, Permutation_map, (eq_inters _ _ E). Qed.
  Lemma deriv_names_inv : deriv_names o = deriv_names o'.
  Proof. apply sort_names_perm_eq, Permutation_map, (eq_derivs _ _ E). Qed.

  Lemma is_deriv_name_inv x : is_deriv_name o x = is_deriv_name o' x.
  Proof. apply mem_perm, Permutation_map, (eq_derivs _ _ E). Qed.
  Lemma is_inter_name_inv x : is_inter_name o x = is_inter_name o' x.
  Proof. apply mem_perm, Permutation_map, (eq_inters _ _ E). Qed.

  Lemma used_inv x : used o x = used o' x.
  Proof. apply existsb_perm, assigns_perm. Qed.

  Lemma deps_of_inv x : deps_of o x = deps_of o' x.
  Proof. unfold deps_of. rewrite find_assign_inv. reflexivity. Qed.

  Lemma all_assign_names_inv : all_assign_names o = all_assign_names o'.
  Proof. unfold all_assign_names. rewrite inter_names_inv, deriv_names_inv. reflexivity. Qed.

  Theorem sorted_names_inv ru : sorted_names o ru = sorted_names o' ru.
  Proof.
    apply sorted_names_ext;
      [apply all_assign_names_inv|apply deps_of_inv|apply is_inter_name_inv|apply used_inv].
  Qed.

  Theorem sorted_states_inv : sorted_states o = sorted_states o'.
  Proof. apply sorted_states_ext; [apply sorted_names_inv|apply is_deriv_name_inv]. Qed.

  Lemma known_symbol_inv x : known_symbol o x = known_symbol o' x.
  Proof.
    unfold known_symbol.
    rewrite (mem_perm x _ _ (Permutation_map d_name (eq_params _ _ E))).
    rewrite (mem_perm x _ _ (Permutation_map d_name (eq_states _ _ E))).
    rewrite (mem_perm x _ _ (Permutation_map a_name assigns_perm)). reflexivity.
  Qed.

  Theorem missing_names_inv : missing_names o = missing_names o'.
  Proof.
    unfold missing_names. apply sort_names_perm_eq, dedup_perm.
    rewrite (filter_ext _ (fun x => negb (known_symbol o' x))) by (intros; rewrite known_symbol_inv; reflexivity).
    apply filter_perm, Permutation_flat_map, assigns_perm.
  Qed.

  Lemma a_expr_of_inv n : a_expr_of o n = a_expr_of o' n.
  Proof. unfold a_expr_of. rewrite find_assign_inv. reflexivity. Qed.

  Lemma rhs_body_inv ord i : rhs_body o ord i = rhs_body o' ord i.
  Proof.
    revert i; induction ord as [|n ord IH]; intros i; simpl; [reflexivity|].
    rewrite is_deriv_name_inv, a_expr_of_inv, !IH. reflexivity.
  Qed.
  Lemma monitor_body_inv ord i : monitor_body o ord i = monitor_body o' ord i.
  Proof.
    revert i; induction ord as [|n ord IH]; intros i; simpl; [reflexivity|].
    rewrite a_expr_of_inv, IH. reflexivity.
  Qed.
  Lemma euler_body_inv ord i : euler_body o ord i = euler_body o' ord i.
  Proof.
    revert i; induction ord as [|n ord IH]; intros i; simpl; [reflexivity|].
    rewrite is_deriv_name_inv, a_expr_of_inv, !IH. reflexivity.
  Qed.

  Lemma condition_inv ru x : condition o ru x = condition o' ru x.
  Proof. unfold condition. destruct ru; [apply used_inv|reflexivity]. Qed.

  Lemma prologue_inv ss k1 k2 k1' k2' :
    (forall x, k1 x = k1' x) -> (forall x, k2 x = k2' x) -> prologue o ss k1 k2 = prologue o' ss k1' k2'.
  Proof.
    intros H1 H2. unfold prologue.
    rewrite param_names_inv, missing_names_inv, (unpack_with_ext _ k1 k1' _ H1), (unpack_with_ext _ k2 k2' _ H2). reflexivity.
  Qed.

  Lemma with_missing_inv args : with_missing o args = with_missing o' args.
  Proof. unfold with_missing. rewrite missing_names_inv. reflexivity. Qed.

  (* the shape the generated functions share; keep_all is condition _ false *)
  Lemma gen_inv name args ru r1 r2 (nret : ode -> nat) (body : ode -> list string -> list stmt) :
    nret o = nret o' -> (forall ord, body o ord = body o' ord) ->
    let gen m :=
      match sorted_states m, sorted_names m ru with
      | Some ss, Some ord =>
          Some {| f_name := name; f_args := with_missing m args; f_nret := nret m;
                  f_body := prologue m ss (condition m r1) (condition m r2) ++ body m ord |}
      | _, _ => None
      end in
    gen o = gen o'.
  Proof.
    intros Hn Hb gen. unfold gen. rewrite sorted_states_inv, sorted_names_inv.
    destruct (sorted_states o'), (sorted_names o' ru); try reflexivity.
    rewrite with_missing_inv, Hn, Hb, (prologue_inv _ _ _ _ _ (condition_inv r1) (condition_inv r2)). reflexivity.
  Qed.

  (* C09: each of the three generated functions is the same, whatever order Python's sets were traversed in *)
  Theorem gen_rhs_inv ru order : gen_rhs o ru order = gen_rhs o' ru order.
  Proof.
    apply (gen_inv "rhs" _ ru ru ru (fun m => length (state_names m)) (fun m ord => rhs_body m ord 0));
      [rewrite state_names_inv; reflexivity|intros; apply rhs_body_inv].
  Qed.

  Theorem gen_euler_inv ru name order : gen_euler o ru name order = gen_euler o' ru name order.
  Proof.
    apply (gen_inv name _ ru false ru (fun m => length (state_names m)) (fun m ord => euler_body m ord 0));
      [rewrite state_names_inv; reflexivity|intros; apply euler_body_inv].
  Qed.

  Theorem gen_monitor_inv ru order : gen_monitor o ru order = gen_monitor o' ru order.
  Proof.
    apply (gen_inv "monitor_values" _ false false ru (fun m => length (o_inters m) + length (o_derivs m))
             (fun m ord => monitor_body m ord 0)); [|intros; apply monitor_body_inv].
    rewrite (Permutation_length (eq_inters _ _ E)), (Permutation_length (eq_derivs _ _ E)). reflexivity.
  Qed.
End Invariance.

(* the conjunction that the theorems for C10 and C11 quote
   (LoadPerm.permuted_text_same_code, SaveLoad.save_then_load_same_code) *)
Theorem same_code o o' :
  ode_equiv o o' -> unique_assign_names o ->
  (forall ru, sorted_names o ru = sorted_names o' ru)
  /\ sorted_states o = sorted_states o'
  /\ param_names o = param_names o' /\ missing_names o = missing_names o'
  /\ (forall ru order, gen_rhs o ru order = gen_rhs o' ru order)
  /\ (forall ru order, gen_monitor o ru order = gen_monitor o' ru order)
  /\ (forall ru name order, gen_euler o ru name order = gen_euler o' ru name order).
Proof.
  intros E U. repeat split; intros;
    [apply sorted_names_inv|apply sorted_states_inv|apply param_names_inv|apply missing_names_inv
    |apply gen_rhs_inv|apply gen_monitor_inv|apply gen_euler_inv]; assumption.
Qed.
