(* Capture.v — identifiers (C19).  A validated body binds every name exactly once, never a name the
   function uses for itself (its scalar formals: dt, t, time), and renaming identifiers consistently
   does not change the value of an expression.  The theorems of C15 (the Myokit conversion substitutes unique
   names for references) are about the same [rename]. *)
From GX Require Import Base Expr Ode Target Sem.
Open Scope string_scope.
Open Scope list_scope.

Section Capture.
  Context {T : Type} (o : ode) (ss : list string) (inp : inputs T) (wd : bool).

  Definition bound_names (body : list stmt) : list string := flat_map binds body.

  Lemma valid_body_fresh nret : forall body defined,
    valid_body o ss inp wd nret defined body = true ->
    NoDup (bound_names body) /\ forall x, In x (bound_names body) -> ~ In x defined.
  Proof.
    induction body as [|s body IH]; intros defined H; simpl.
    - split; [constructor|intros x []].
    - apply andb_prop in H. destruct H as [Hok Hrest].
      destruct (IH _ Hrest) as [Hnd Hfresh]. split.
      + apply NoDup_app_intro; auto.
        * destruct s; simpl; repeat constructor; auto.
        * intros x Hx Hx'. apply (Hfresh x Hx'), in_or_app. left; exact Hx.
      + intros x Hx. apply in_app_or in Hx. destruct Hx as [Hx|Hx]; [exact (ok_stmt_fresh o ss inp wd _ _ _ x Hok Hx)|].
        intros Hd. apply (Hfresh x Hx), in_or_app. right; exact Hd.
  Qed.

  Theorem valid_body_does_not_capture_formals nret body x :
    valid_body o ss inp wd nret (reserved inp wd) body = true ->
    In x (bound_names body) -> ~ In x (reserved inp wd).
  Proof. intros H Hx. destruct (valid_body_fresh nret body _ H) as [_ Hf]. apply Hf. exact Hx. Qed.

  Theorem valid_body_binds_each_name_once nret body :
    valid_body o ss inp wd nret (reserved inp wd) body = true -> NoDup (bound_names body).
  Proof. intros H. destruct (valid_body_fresh nret body _ H) as [Hn _]. exact Hn. Qed.
End Capture.

Fixpoint rename (r : string -> string) (e : expr) : expr :=
  match e with
  | ENum _ _ | EPi => e
  | EVar x => EVar (r x)
  | EAdd a b => EAdd (rename r a) (rename r b)
  | ESub a b => ESub (rename r a) (rename r b)
  | EMul a b => EMul (rename r a) (rename r b)
  | EDiv a b => EDiv (rename r a) (rename r b)
  | EPow a b => EPow (rename r a) (rename r b)
  | ENeg a => ENeg (rename r a)
  | EFn f a => EFn f (rename r a)
  | EMod a b => EMod (rename r a) (rename r b)
  | ERel c a b => ERel c (rename r a) (rename r b)
  | ENot a => ENot (rename r a)
  | EAnd a b => EAnd (rename r a) (rename r b)
  | EOr a b => EOr (rename r a) (rename r b)
  | ECond c a b => ECond (rename r c) (rename r a) (rename r b)
  end.

Lemma rename_subst r e : rename r e = subst (fun x => Some (EVar (r x))) e.
Proof. induction e; simpl; auto using f_equal, f_equal2, f_equal3. Qed.

Theorem eval_rename {T} (N : NumOps T) r rho e :
  eval N rho (rename r e) = eval N (fun x => rho (r x)) e.
Proof. rewrite rename_subst. apply eval_subst. Qed.

Theorem vars_rename r e : vars (rename r e) = map r (vars e).
Proof.
  rewrite rename_subst, vars_subst_eq. induction (vars e) as [|x l IH]; [reflexivity|exact (f_equal (cons (r x)) IH)].
Qed.

(* C15: a renaming that sends every reference to the referent's unique name preserves the meaning, when the
   target environment gives the unique name the value the source environment gives the reference *)
Theorem eval_rename_transport {T} (N : NumOps T) (r : string -> string) (rho rho' : string -> T) e :
  (forall x, In x (vars e) -> rho' (r x) = rho x) ->
  eval N rho' (rename r e) = eval N rho e.
Proof.
  intros H. rewrite eval_rename. apply eval_ext. exact H.
Qed.

(* successive substitution passes compose *)
Theorem rename_compose r1 r2 e : rename r2 (rename r1 e) = rename (fun x => r2 (r1 x)) e.
Proof. induction e; simpl; auto using f_equal, f_equal2, f_equal3. Qed.

(* a pass that matches nothing (e.g. one keyed by strings where the expression holds symbols) is the
   identity: every reference keeps its local name *)
Theorem rename_id e : rename (fun x => x) e = e.
Proof. induction e; simpl; auto using f_equal, f_equal2, f_equal3. Qed.
