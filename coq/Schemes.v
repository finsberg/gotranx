(* Schemes.v — the Rush-Larsen schemes (schemes.py): symbolic derivative with respect to the own
   state, the helper definitions  <d>_linearized, the shapes of the slot updates, and the
   validators / soundness theorems for generalized and hybrid Rush-Larsen.

     generalized_rush_larsen, per state derivative  n = d<s>_dt  with expression e:
        g := diff(e, s)                       (all other names held fixed)
        g is_zero          ->  values[i] = s + dt*n                                   (MEuler)
        otherwise  n_linearized = g ; and
          fraction_numerator_is_nonzero(g) ->  values[i] = s + n/g_lin*(exp(g_lin*dt) - 1)   (MPlain)
          else  values[i] = s + Conditional(abs(g_lin) > delta, n/g_lin*(exp(g_lin*dt)-1), dt*n)  (MGuard)
     hybrid_rush_larsen: the same for states listed as stiff, the Euler update for the others. *)
From GX Require Import Base Expr Ode Target Sem Valid.
From Coq Require Import QArith_base.
Close Scope Q_scope.
Open Scope string_scope.
Open Scope list_scope.

Definition e_num (z : Z) : expr := ENum (inject_Z z) true.

(* sign(a) as sympy defines it for real a *)
Definition e_sign (a : expr) : expr :=
  ECond (ERel Rgt a (e_num 0)) (e_num 1) (ECond (ERel Rlt a (e_num 0)) (ENeg (e_num 1)) (e_num 0)).

Fixpoint D (x : string) (e : expr) : expr :=
  match e with
  | ENum _ _ | EPi => e_num 0
  | EVar y => if String.eqb x y then e_num 1 else e_num 0
  | EAdd a b => EAdd (D x a) (D x b)
  | ESub a b => ESub (D x a) (D x b)
  | EMul a b => EAdd (EMul (D x a) b) (EMul a (D x b))
  | EDiv a b => EDiv (ESub (EMul (D x a) b) (EMul a (D x b))) (EMul b b)
  | EPow a b =>
      if mem x (vars b)
      then (* a^b * (b' * ln a + b * a' / a) *)
        EMul (EPow a b) (EAdd (EMul (D x b) (EFn Flog a)) (EDiv (EMul b (D x a)) a))
      else (* b * a^(b-1) * a' *)
        EMul (EMul b (EPow a (ESub b (e_num 1)))) (D x a)
  | ENeg a => ENeg (D x a)
  | EFn f a =>
      let da := D x a in
      match f with
      | Fexp => EMul (EFn Fexp a) da
      | Fsin => EMul (EFn Fcos a) da
      | Fcos => EMul (ENeg (EFn Fsin a)) da
      | Ftan => EMul (EAdd (e_num 1) (EMul (EFn Ftan a) (EFn Ftan a))) da
      | Fasin => EDiv da (EFn Fsqrt (ESub (e_num 1) (EMul a a)))
      | Facos => ENeg (EDiv da (EFn Fsqrt (ESub (e_num 1) (EMul a a))))
      | Fatan => EDiv da (EAdd (e_num 1) (EMul a a))
      | Flog => EDiv da a
      | Fsqrt => EDiv da (EMul (e_num 2) (EFn Fsqrt a))
      | Fabs => EMul (e_sign a) da
      | Ffloor => e_num 0
      end
  | EMod a b => D x a          (* piecewise: d/dx (a - b*floor(a/b)) for b free of x *)
  | ERel _ _ _ | ENot _ | EAnd _ _ | EOr _ _ => e_num 0
  | ECond c a b => ECond c (D x a) (D x b)
  end.

(* every list of names the derivative concatenates is that of a subterm or of a subterm's derivative.
   [incl_app] comes first: a union on the left is split at once; trying to fit it whole into one half of
   the right-hand side first makes the search exponential in the nesting *)
Create HintDb incl discriminated.
#[local] Hint Resolve incl_app | 0 : incl.
#[local] Hint Resolve incl_nil_l incl_refl incl_appl incl_appr | 2 : incl.

Lemma D_vars x e : forall y, In y (vars (D x e)) -> In y (vars e).
Proof.
  change (incl (vars (D x e)) (vars e)).
  induction e as [ |y| | | | | |a IHa b IHb| |f a IHa| | | | | | ]; simpl; auto 6 with incl nocore.
  - destruct (String.eqb x y); simpl; auto with incl nocore.
  - destruct (mem x (vars b)); simpl; auto 6 with incl nocore.
  - destruct f; simpl; auto 6 with incl nocore.
Qed.

(* expr_diff.is_zero of schemes.py ("is identically zero"), decided conservatively *)
Fixpoint const_val (e : expr) : option Q :=
  match e with
  | ENum q _ => Some q
  | EAdd a b => match const_val a, const_val b with Some p, Some q => Some (p + q)%Q | _, _ => None end
  | ESub a b => match const_val a, const_val b with Some p, Some q => Some (p - q)%Q | _, _ => None end
  | EMul a b =>
      match const_val a, const_val b with
      | Some p, Some q => Some (p * q)%Q
      | Some p, None => if Qeq_bool p 0 then Some 0%Q else None
      | None, Some q => if Qeq_bool q 0 then Some 0%Q else None
      | None, None => None
      end
  | EDiv a b =>
      match const_val a with
      | Some p => if Qeq_bool p 0 then Some 0%Q
                  else match const_val b with
                       | Some q => if Qeq_bool q 0 then None else Some (p / q)%Q
                       | None => None
                       end
      | None => None
      end
  | ENeg a => match const_val a with Some p => Some (- p)%Q | None => None end
  | ECond _ a b =>
      match const_val a, const_val b with
      | Some p, Some q => if Qeq_bool p q then Some p else None
      | _, _ => None
      end
  | _ => None
  end.

Definition is_zero_expr (e : expr) : bool :=
  match const_val e with Some q => Qeq_bool q 0 | None => false end.

Definition lin_name (n : string) : string := String.append n "_linearized".

Definition lin_assign (a : assign) : assign :=
  {| a_name := lin_name (a_name a);
     a_expr := D (match deriv_state (a_name a) with Some s => s | None => "" end) (a_expr a);
     a_comps := a_comps a; a_unit := None; a_comment := None |}.

Definition extend_lin (o : ode) : ode :=
  {| o_states := o_states o; o_params := o_params o;
     o_inters := o_inters o ++ map lin_assign (o_derivs o);
     o_derivs := o_derivs o |}.

Inductive mode := MEuler | MGuard | MPlain.

Definition mode_eqb (a b : mode) : bool :=
  match a, b with MEuler, MEuler | MGuard, MGuard | MPlain, MPlain => true | _, _ => false end.

Definition is_num (q : Q) (e : expr) : bool :=
  match e with ENum p _ => Q_eqb_syn p q | _ => false end.

Definition is_mul2 (pa pb : expr -> bool) (e : expr) : bool :=
  match e with EMul a b => (pa a && pb b) || (pb a && pa b) | _ => false end.

Definition is_expm1 (g : string) (e : expr) : bool :=
  match e with
  | ESub (EFn Fexp m) one => is_mul2 (is_var g) (is_var "dt") m && is_num 1 one
  | _ => false
  end.

(* n/g*(exp(g*dt) - 1)  in any of the association / commutation variants a printer may choose *)
Definition is_rl_term (n g : string) (e : expr) : bool :=
  match e with
  | EDiv m (EVar g') => String.eqb g g' && is_mul2 (is_var n) (is_expm1 g) m
  | EMul a b =>
      let is_ng := fun e => match e with EDiv (EVar n') (EVar g') => String.eqb n n' && String.eqb g g' | _ => false end in
      let is_eg := fun e => match e with EDiv m (EVar g') => String.eqb g g' && is_expm1 g m | _ => false end in
      (is_ng a && is_expm1 g b) || (is_expm1 g a && is_ng b)
      || (is_var n a && is_eg b) || (is_eg a && is_var n b)
  | _ => false
  end.

(* abs(g) > delta, also in the form sympy.simplify gives it for a real g:  Or(g > delta, g < -delta) *)
Definition is_gt_delta (g : string) (delta : Q) (c : expr) : bool :=
  match c with ERel Rgt (EVar g') d => String.eqb g g' && is_num delta d | _ => false end.
Definition is_lt_mdelta (g : string) (delta : Q) (c : expr) : bool :=
  match c with
  | ERel Rlt (EVar g') (ENeg d) => String.eqb g g' && is_num delta d
  | ERel Rlt (EVar g') (ENum z _) => String.eqb g g' && Q_eqb_syn z 0 && Q_eqb_syn delta 0  (* -0 printed as 0 *)
  | _ => false
  end.

Definition is_guard (g : string) (delta : Q) (c : expr) : bool :=
  match c with
  | ERel Rgt (EFn Fabs (EVar g')) d => String.eqb g g' && is_num delta d
  | EOr a b => (is_gt_delta g delta a && is_lt_mdelta g delta b)
               || (is_lt_mdelta g delta a && is_gt_delta g delta b)
  | _ => false
  end.

Definition is_add2 (pa pb : expr -> bool) (e : expr) : bool :=
  match e with EAdd a b => (pa a && pb b) || (pb a && pa b) | _ => false end.

Definition is_guarded_term (n g : string) (delta : Q) (e : expr) : bool :=
  match e with
  | ECond c a b => is_guard g delta c && is_rl_term n g a && is_dt_mul n b
  | _ => false
  end.

Definition is_update (md : mode) (delta : Q) (s : string) (e : expr) : bool :=
  let n := deriv_name_of s in
  let g := lin_name n in
  match md with
  | MEuler => is_euler s e
  | MGuard => is_add2 (is_var s) (is_guarded_term n g delta) e
  | MPlain => is_add2 (is_var s) (is_rl_term n g) e
  end.

Definition slot_mode (modes : list mode) (stiff : string -> bool) (i : nat) (s : string) : mode :=
  if stiff s then nth i modes MEuler else MEuler.

Definition ok_scheme (o : ode) (ss : list string) (modes : list mode) (stiff : string -> bool)
  (delta : Q) (i : nat) (e : expr) : bool :=
  match nth_error ss i with
  | Some s => is_update (slot_mode modes stiff i s) delta s e && is_deriv_name o (deriv_name_of s)
  | None => false
  end.

(* the mirror's prediction of the mode of each state (is_zero / fraction_numerator_is_nonzero are
   sympy-side decisions; [nonzero] is the exported verdict of the latter) *)
Definition predict_mode (o : ode) (nonzero : string -> bool) (s : string) : mode :=
  match find_assign o (deriv_name_of s) with
  | Some a => if is_zero_expr (D s (a_expr a)) then MEuler
              else if nonzero s then MPlain else MGuard
  | None => MEuler
  end.

Section SchemeSound.
  Context {T : Type} (N : NumOps T) (o : ode).
  Variable ss : list string.
  Variable inp : inputs T.

  Let o' := extend_lin o.
  Notation SemX := (Sem N o' ss inp true).
  Notation SemEX := (SemE N o' ss inp true).

  (* the equations between the operations that the proofs below use; the reals satisfy them
     (RealsC.ROps_field) *)
  Record FieldLaws : Prop := {
    fl_add_comm : forall a b : T, add N a b = add N b a;
    fl_mul_comm : forall a b : T, mul N a b = mul N b a;
    fl_mul_div_l : forall a b c : T, div N (mul N a b) c = mul N (div N a c) b;
    fl_mul_div_r : forall a b c : T, mul N a (div N b c) = mul N (div N a c) b;
    fl_bor_comm : forall a b : T, bor N a b = bor N b a;
    fl_neg_zero : neg N (ofQ N 0%Q) = ofQ N 0%Q;
    fl_abs_gt : forall g d : T,
        bor N (rel N Rgt g d) (rel N Rlt g (neg N d)) = rel N Rgt (fn N Fabs g) d }.

  Definition valid_scheme (modes : list mode) (stiff : string -> bool) (delta : Q) (f : func) : bool :=
    Nat.eqb (f_nret f) (length ss)
    && valid_fun o' ss inp true f (ok_scheme o ss modes stiff delta).

  (* the value the property prescribes for a slot, as a function of the meanings of the state,
     its derivative f, its linearisation g, and dt *)
  Definition one : T := ofQ N 1%Q.
  Definition rl_value (fv gv dtv : T) : T :=
    mul N (div N fv gv) (sub N (fn N Fexp (mul N gv dtv)) one).
  Definition slot_value (md : mode) (delta : Q) (sv fv gv dtv : T) : T :=
    match md with
    | MEuler => add N sv (mul N dtv fv)
    | MPlain => add N sv (rl_value fv gv dtv)
    | MGuard => add N sv (select N (rel N Rgt (fn N Fabs gv) (ofQ N delta)) (rl_value fv gv dtv) (mul N dtv fv))
    end.

  Lemma SemEX_var_inv x v : SemEX (EVar x) v -> SemX x v.
  Proof. apply SemE_var. Qed.

  Lemma is_num_eval q e rho : is_num q e = true -> eval N rho e = ofQ N q.
  Proof. destruct e; try discriminate. intros H. apply Q_eqb_syn_eq in H. subst. reflexivity. Qed.

  Hypothesis HF : FieldLaws.

  Lemma FieldLaws_comm : CommOps N.
  Proof. constructor; [apply (fl_add_comm HF)|apply (fl_mul_comm HF)]. Qed.

  Lemma is_mul2_vars_eval a b e rho :
    is_mul2 (is_var a) (is_var b) e = true -> eval N rho e = mul N (rho a) (rho b).
  Proof. intros H. apply (mul_vars_eval N a b e H), FieldLaws_comm. Qed.

  Lemma is_expm1_eval g e rho :
    is_expm1 g e = true -> eval N rho e = sub N (fn N Fexp (mul N (rho g) (rho "dt"))) one.
  Proof.
    destruct e; try discriminate. destruct e1; try discriminate. destruct f; try discriminate.
    intros H. apply andb_prop in H. destruct H as [Hm Hn]. simpl.
    rewrite (is_mul2_vars_eval _ _ _ _ Hm), (is_num_eval _ _ _ Hn). reflexivity.
  Qed.

  (* the quotient shapes  n/g  and  m/g  that [is_rl_term] looks for *)
  Lemma div_vars_shape n g e :
    match e with EDiv (EVar n') (EVar g') => String.eqb n n' && String.eqb g g' | _ => false end = true ->
    e = EDiv (EVar n) (EVar g).
  Proof.
    destruct e; try discriminate. destruct e1; try discriminate. destruct e2; try discriminate.
    intros H. apply andb_prop in H. destruct H as [Hn Hg]. apply String.eqb_eq in Hn, Hg. congruence.
  Qed.

  Lemma div_var_shape g (p : expr -> bool) e :
    match e with EDiv m (EVar g') => String.eqb g g' && p m | _ => false end = true ->
    exists m, e = EDiv m (EVar g) /\ p m = true.
  Proof.
    destruct e; try discriminate. destruct e2; try discriminate.
    intros H. apply andb_prop in H. destruct H as [Hg Hp]. apply String.eqb_eq in Hg. subst. eauto.
  Qed.

  Lemma is_rl_term_eval n g e :
    is_rl_term n g e = true ->
    In n (vars e) /\ In g (vars e) /\ forall rho, eval N rho e = rl_value (rho n) (rho g) (rho "dt").
  Proof.
    intros H. destruct e; try discriminate H.
    - simpl in H. repeat (apply orb_prop in H; destruct H as [H|H]); apply andb_prop in H; destruct H as [P Q].
      + (* (n/g) * expm1 *)
        apply div_vars_shape in P. subst e1. simpl. repeat (split; [auto 6 with datatypes|]).
        intros rho. rewrite (is_expm1_eval _ _ _ Q). reflexivity.
      + (* expm1 * (n/g) *)
        apply div_vars_shape in Q. subst e2. simpl. repeat (split; [auto 6 with datatypes|]).
        intros rho. rewrite (is_expm1_eval _ _ _ P). apply (fl_mul_comm HF).
      + (* n * (expm1/g) *)
        apply is_var_eq in P. apply div_var_shape in Q. destruct Q as (m & -> & Q). subst e1. simpl.
        repeat (split; [auto 6 with datatypes|]).
        intros rho. rewrite (is_expm1_eval _ _ _ Q). apply (fl_mul_div_r HF).
      + (* (expm1/g) * n *)
        apply is_var_eq in Q. apply div_var_shape in P. destruct P as (m & -> & P). subst e2. simpl.
        repeat (split; [auto 6 with datatypes|]).
        intros rho. rewrite (is_expm1_eval _ _ _ P), (fl_mul_comm HF). apply (fl_mul_div_r HF).
    - (* m / g  with  m = n * expm1  in either order *)
      apply (div_var_shape g _ (EDiv e1 e2)) in H. destruct H as (m & [= -> ->] & H).
      destruct m; try discriminate. simpl in H.
      apply orb_prop in H. destruct H as [H|H]; apply andb_prop in H; destruct H as [P Q].
      + apply is_var_eq in P. subst. simpl. repeat (split; [auto 6 with datatypes|]).
        intros rho. rewrite (is_expm1_eval _ _ _ Q). apply (fl_mul_div_l HF).
      + apply is_var_eq in Q. subst. simpl. repeat (split; [auto 6 with datatypes|]).
        intros rho. rewrite (is_expm1_eval _ _ _ P), (fl_mul_comm HF). apply (fl_mul_div_l HF).
  Qed.

  Lemma is_gt_delta_eval g delta c rho :
    is_gt_delta g delta c = true -> eval N rho c = rel N Rgt (rho g) (ofQ N delta).
  Proof.
    destruct c; try discriminate. destruct r; try discriminate. destruct c1; try discriminate.
    intros H. apply andb_prop in H. destruct H as [P Q]. apply String.eqb_eq in P. subst.
    simpl. rewrite (is_num_eval _ _ _ Q). reflexivity.
  Qed.

  Lemma is_lt_mdelta_eval g delta c rho :
    is_lt_mdelta g delta c = true -> eval N rho c = rel N Rlt (rho g) (neg N (ofQ N delta)).
  Proof.
    destruct c; try discriminate. destruct r; try discriminate. destruct c1; try discriminate.
    destruct c2; try discriminate; intros H.
    - apply andb_prop in H. destruct H as [H Qd]. apply andb_prop in H.
      destruct H as [P Qz]. apply String.eqb_eq in P. apply Q_eqb_syn_eq in Qz. apply Q_eqb_syn_eq in Qd. subst.
      simpl. rewrite (fl_neg_zero HF). reflexivity.
    - apply andb_prop in H. destruct H as [P Q]. apply String.eqb_eq in P. subst.
      simpl. rewrite (is_num_eval _ _ _ Q). reflexivity.
  Qed.

  Lemma is_guard_eval g delta c rho :
    is_guard g delta c = true -> eval N rho c = rel N Rgt (fn N Fabs (rho g)) (ofQ N delta).
  Proof.
    intros H. destruct c; try discriminate H.
    - destruct r; try discriminate H. destruct c1; try discriminate H. destruct f; try discriminate H.
      destruct c1; try discriminate H.
      apply andb_prop in H. destruct H as [P Q]. apply String.eqb_eq in P. subst.
      simpl. rewrite (is_num_eval _ _ _ Q). reflexivity.
    - simpl in H. apply orb_prop in H. destruct H as [H|H]; apply andb_prop in H; destruct H as [P Q]; simpl.
      + rewrite (is_gt_delta_eval _ _ _ _ P), (is_lt_mdelta_eval _ _ _ _ Q). apply (fl_abs_gt HF).
      + rewrite (is_lt_mdelta_eval _ _ _ _ P), (is_gt_delta_eval _ _ _ _ Q), (fl_bor_comm HF). apply (fl_abs_gt HF).
  Qed.

  Lemma is_update_eval md delta s e :
    is_update md delta s e = true ->
    In (deriv_name_of s) (vars e)
    /\ (md = MEuler \/ In (lin_name (deriv_name_of s)) (vars e))
    /\ forall rho, eval N rho e =
         slot_value md delta (rho s) (rho (deriv_name_of s)) (rho (lin_name (deriv_name_of s))) (rho "dt").
  Proof.
    intros H. destruct md; simpl in H.
    - destruct (is_euler_eval N s e H) as [Hin Hev]. split; [exact Hin|]. split; [left; reflexivity|].
      exact (Hev FieldLaws_comm).
    - (* [is_add2 (is_var s) p] unfolds to the sum shape of [add_var_eval] *)
      destruct (add_var_eval N _ _ _ H) as (e' & Hp & Hi & Hev).
      destruct e' as [ | | | | | | | | | | | | | | |c a b]; try discriminate Hp.
      apply andb_prop in Hp. destruct Hp as [Hp Hb]. apply andb_prop in Hp. destruct Hp as [Hc Ha].
      destruct (is_rl_term_eval _ _ _ Ha) as (Rn & Rg & Ea).
      assert (Hi2 : incl (vars a) (vars e)).
      { intros y Hy. apply Hi. simpl. apply in_or_app. right. apply in_or_app. left. exact Hy. }
      split; [exact (Hi2 _ Rn)|]. split; [right; exact (Hi2 _ Rg)|]. intros rho. rewrite (Hev FieldLaws_comm). simpl.
      rewrite (is_guard_eval _ _ _ rho Hc), Ea, (is_mul2_vars_eval "dt" _ b rho Hb). reflexivity.
    - destruct (add_var_eval N _ _ _ H) as (e' & Hp & Hi & Hev).
      destruct (is_rl_term_eval _ _ _ Hp) as (Rn & Rg & Ea).
      split; [exact (Hi _ Rn)|]. split; [right; exact (Hi _ Rg)|]. intros rho.
      rewrite (Hev FieldLaws_comm), Ea. reflexivity.
  Qed.

  (* C06 / C07: a validated scheme program runs to completion and slot state_index(s) holds the
     prescribed update of s: generalized Rush-Larsen in the mode of s for a stiff s, explicit Euler
     otherwise *)
  Theorem scheme_sound modes stiff delta f :
    sizes_ok o' ss inp -> reserved_free o' inp true = true ->
    states_clean o' ss inp true = true -> NoDup ss ->
    valid_scheme modes stiff delta f = true ->
    exists out,
      exec N f true inp = Some out
      /\ length out = length ss
      /\ forall i s, nth_error ss i = Some s ->
           exists sv fv gv,
             nth_error (in_states inp) i = Some sv
             /\ SemX (deriv_name_of s) fv
             /\ (slot_mode modes stiff i s = MEuler \/ SemX (lin_name (deriv_name_of s)) gv)
             /\ nth_error out i = Some (slot_value (slot_mode modes stiff i s) delta sv fv gv (in_dt inp)).
  Proof.
    intros Hsz Hrf Hcl Hnd Hv.
    destruct (table_sound N o' ss inp true ss _ f Hsz Hrf Hv) as (out & Hex & Hlen & Hsl).
    exists out. split; [exact Hex|]. split; [exact Hlen|]. intros i s Hs.
    destruct (Hsl i s Hs) as (e & v & Hok & Hse & Hnth). unfold ok_scheme in Hok. rewrite Hs in Hok.
    apply andb_prop, proj1 in Hok.
    destruct (Sem_state N o' ss inp true i s Hsz Hcl Hnd Hs) as (sv & Esv & Hsv).
    destruct (is_update_eval _ _ _ _ Hok) as (Rn & Rg & Hev).
    destruct (SemE_known N o' ss inp true e v [(s, sv); ("dt", in_dt inp)] Hse) as (rho & Hrho & Hk & ->).
    { intros x w [[= <- <-]|[[= <- <-]|[]]]; [exact Hsv|exact (Sem_dt N o' ss inp true eq_refl Hrf)]. }
    (* the update reads the derivative and, unless Euler, the linearisation, so they have a meaning *)
    exists sv, (rho (deriv_name_of s)), (rho (lin_name (deriv_name_of s))).
    split; [exact Esv|]. split; [exact (Hrho _ Rn)|]. split; [destruct Rg as [E|Rg]; [left; exact E|right; exact (Hrho _ Rg)]|].
    rewrite Hnth, Hev, (Hk s sv (or_introl eq_refl)), (Hk "dt" _ (or_intror (or_introl eq_refl))). reflexivity.
  Qed.

End SchemeSound.

(* C07: the hybrid scheme is slot-wise the generalized scheme on the stiff states and explicit Euler on the
   others *)
Section Hybrid.
  Context {T : Type} (N : NumOps T) (o : ode).
  Variable ss : list string.
  Variable inp : inputs T.
  Hypothesis HF : FieldLaws N.

  (* every state stiff: the generalized scheme; no state stiff: explicit Euler *)
  Definition all_stiff (_ : string) := true.
  Definition none_stiff (_ : string) := false.

  Lemma scheme_agree modes stiff1 stiff2 delta f1 f2 :
    sizes_ok (extend_lin o) ss inp -> reserved_free (extend_lin o) inp true = true ->
    states_clean (extend_lin o) ss inp true = true -> NoDup ss ->
    valid_scheme o ss inp modes stiff1 delta f1 = true ->
    valid_scheme o ss inp modes stiff2 delta f2 = true ->
    exists o1 o2,
      exec N f1 true inp = Some o1 /\ exec N f2 true inp = Some o2
      /\ length o1 = length ss /\ length o2 = length ss
      /\ forall i s, nth_error ss i = Some s ->
           slot_mode modes stiff1 i s = slot_mode modes stiff2 i s -> nth_error o1 i = nth_error o2 i.
  Proof.
    intros Hsz Hrf Hcl Hnd H1 H2.
    destruct (scheme_sound N o ss inp HF modes stiff1 delta f1 Hsz Hrf Hcl Hnd H1) as (o1 & E1 & L1 & S1).
    destruct (scheme_sound N o ss inp HF modes stiff2 delta f2 Hsz Hrf Hcl Hnd H2) as (o2 & E2 & L2 & S2).
    exists o1, o2. repeat (split; [assumption|]).
    intros i s Hs Hm.
    destruct (S1 i s Hs) as (sv & fv & gv & Hsv & Hf & Hg & ->).
    destruct (S2 i s Hs) as (sv' & fv' & gv' & Hsv' & Hf' & Hg' & ->).
    rewrite <- Hm in Hg' |- *. rewrite Hsv in Hsv'. injection Hsv' as <-.
    rewrite (Sem_fun N _ ss inp true _ _ Hf' _ Hf). f_equal.
    (* Euler's value does not mention the linearisation; in the other modes it has a meaning *)
    destruct Hg as [->|Hg]; [reflexivity|]. destruct Hg' as [->|Hg']; [reflexivity|].
    rewrite (Sem_fun N _ ss inp true _ _ Hg' _ Hg). reflexivity.
  Qed.

  Theorem hybrid_slotwise modes stiff delta fh fg fe :
    sizes_ok (extend_lin o) ss inp -> reserved_free (extend_lin o) inp true = true ->
    states_clean (extend_lin o) ss inp true = true -> NoDup ss ->
    valid_scheme o ss inp modes stiff delta fh = true ->
    valid_scheme o ss inp modes all_stiff delta fg = true ->
    valid_scheme o ss inp modes none_stiff delta fe = true ->
    exists oh og oe,
      exec N fh true inp = Some oh /\ exec N fg true inp = Some og /\ exec N fe true inp = Some oe
      /\ length oh = length ss /\ length og = length ss /\ length oe = length ss
      /\ forall i s, nth_error ss i = Some s ->
           nth_error oh i = if stiff s then nth_error og i else nth_error oe i.
  Proof.
    intros Hsz Hrf Hcl Hnd Hh Hg He.
    destruct (scheme_agree modes stiff all_stiff delta fh fg Hsz Hrf Hcl Hnd Hh Hg) as (oh & og & Eh & Eg & Lh & Lg & Ag).
    destruct (scheme_agree modes stiff none_stiff delta fh fe Hsz Hrf Hcl Hnd Hh He) as (oh' & oe & Eh' & Ee & _ & Le & Ae).
    rewrite Eh in Eh'. injection Eh' as <-.
    exists oh, og, oe. repeat (split; [assumption|]).
    intros i s Hs. specialize (Ag i s Hs). specialize (Ae i s Hs). unfold slot_mode, all_stiff, none_stiff in Ag, Ae.
    destruct (stiff s); [apply Ag|apply Ae]; reflexivity.
  Qed.

  Lemma ok_scheme_stiff modes stiff stiff' delta i e :
    (forall s, In s ss -> stiff s = stiff' s) ->
    ok_scheme o ss modes stiff delta i e = ok_scheme o ss modes stiff' delta i e.
  Proof.
    intros H. unfold ok_scheme. destruct (nth_error ss i) as [s|] eqn:E; [|reflexivity].
    unfold slot_mode. rewrite (H s (nth_error_In _ _ E)). reflexivity.
  Qed.

  Corollary hybrid_depends_on_states_only modes stiff stiff' delta f :
    (forall s, In s ss -> stiff s = stiff' s) ->
    valid_scheme o ss inp modes stiff delta f = valid_scheme o ss inp modes stiff' delta f.
  Proof.
    intros H. unfold valid_scheme. f_equal. apply Bool.eq_true_iff_eq.
    split; apply valid_fun_mono; intros i e; rewrite (ok_scheme_stiff modes stiff stiff' delta i e H); exact id.
  Qed.
End Hybrid.
