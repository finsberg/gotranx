(* KahnSound.v — the mirror of graphlib.TopologicalSorter.static_order (Topo.v) is sound and complete:
   every order it returns lists each node once, after all of its predecessors, and it returns one
   (no CycleError) exactly when the edges admit a ranking, that is, when the graph is acyclic.  Both are
   shown for any graph whose in-degree counters match its edge lists (Section Kahn), then for the graphs
   TopologicalSorter.add builds.  Hence the statement order ODE.sorted_assignments produces defines every
   name before it is used, for every model (C01, C08), and CycleError is raised only for cyclic
   definitions (C08, C10). *)
From GX Require Import Base Topo.
From Coq Require Import BinInt Znat Lia Permutation.

Definition gsuccs (g : graph) (n : string) : list string :=
  match lookup n g with Some i => succs i | None => [] end.
Definition gnpred (g : graph) (n : string) : Z :=
  match lookup n g with Some i => npred i | None => 0%Z end.

Lemma lookup_g_update g m f n :
  lookup n (g_update g m f) =
  if String.eqb n m then match lookup m g with Some i => Some (f i) | None => None end else lookup n g.
Proof.
  induction g as [|[k i] g IH]; cbn [g_update lookup].
  - destruct (String.eqb n m); reflexivity.
  - destruct (String.eqb_spec m k) as [->|Hmk]; cbn [lookup].
    + destruct (String.eqb n k); reflexivity.
    + rewrite IH. destruct (String.eqb_spec n k) as [->|]; [|reflexivity].
      destruct (String.eqb_spec k m) as [->|]; [contradiction|reflexivity].
Qed.

Lemma keys_g_update g m f : keys (g_update g m f) = keys g.
Proof.
  induction g as [|[k i] g IH]; simpl; [reflexivity|].
  destruct (String.eqb m k); simpl; [reflexivity|]. f_equal. exact IH.
Qed.

(* the entry _get_nodeinfo(n) returns: the one present, or a fresh one *)
Definition info (g : graph) (n : string) : ninfo :=
  match lookup n g with Some i => i | None => {| npred := 0; succs := [] |} end.

Lemma gsuccs_info g n : gsuccs g n = succs (info g n).
Proof. unfold gsuccs, info. destruct (lookup n g); reflexivity. Qed.

Lemma gnpred_info g n : gnpred g n = npred (info g n).
Proof. unfold gnpred, info. destruct (lookup n g); reflexivity. Qed.

Lemma info_notin g k : ~ In k (keys g) -> info g k = {| npred := 0; succs := [] |}.
Proof. intros H. apply lookup_None_keys in H. unfold info. rewrite H. reflexivity. Qed.

Fixpoint cnt (x : string) (l : list string) : nat :=
  match l with
  | [] => 0
  | y :: l' => (if String.eqb x y then 1 else 0) + cnt x l'
  end.

Lemma cnt_app x l1 l2 : cnt x (l1 ++ l2) = cnt x l1 + cnt x l2.
Proof. induction l1 as [|y l1 IH]; simpl; [reflexivity|]. rewrite IH. apply Nat.add_assoc. Qed.

Lemma cnt_pos_iff x l : 1 <= cnt x l <-> In x l.
Proof.
  induction l as [|y l IH]; cbn [cnt In]; [split; [apply Nat.nle_succ_0|intros []]|].
  destruct (String.eqb_spec x y) as [->|Hne]; [split; [auto|intros _; apply Nat.le_add_r]|]. split.
  - intros H. right. apply IH, H.
  - intros [E|H]; [congruence|apply IH, H].
Qed.

Lemma cnt_zero_notin x l : cnt x l = 0 <-> ~ In x l.
Proof. rewrite <- cnt_pos_iff. lia. Qed.

Lemma cnt_Permutation x l l' : Permutation l l' -> cnt x l = cnt x l'.
Proof. induction 1; cbn [cnt]; [reflexivity|congruence|apply Nat.add_shuffle3|congruence]. Qed.

Lemma cnt_flat_map_append sc sc' (p n : string) extra l :
  NoDup l -> (forall k, sc' k = if String.eqb k p then sc k ++ extra else sc k) ->
  cnt n (flat_map sc' l) = cnt n (flat_map sc l) + (if mem p l then cnt n extra else 0).
Proof.
  intros Hnd HS. induction Hnd as [|k l Hk _ IH]; [reflexivity|].
  cbn [flat_map]. rewrite !cnt_app, IH, HS, mem_cons, (String.eqb_sym p k).
  destruct (String.eqb_spec k p) as [->|]; [|apply Nat.add_assoc].
  apply mem_false_In in Hk. rewrite Hk, cnt_app, Nat.add_0_r. apply Nat.add_shuffle0.
Qed.

Definition lowered (l : list string) (g g' : graph) : Prop :=
  keys g' = keys g /\ forall n, gnpred g' n = (gnpred g n - Z.of_nat (cnt n l))%Z.

Lemma lowered_app l1 l2 g g1 g2 : lowered l1 g g1 -> lowered l2 g1 g2 -> lowered (l1 ++ l2) g g2.
Proof.
  intros [Hk1 Hn1] [Hk2 Hn2]. split; [rewrite Hk2; exact Hk1|].
  intros n. rewrite Hn2, Hn1, cnt_app, Nat2Z.inj_add. symmetry. apply Z.sub_add_distr.
Qed.

Lemma done_succ_spec (g : graph) ready s :
  In s (keys g) ->
  exists g', done_succ (g, ready) s = (g', if (gnpred g s - 1 =? 0)%Z then ready ++ [s] else ready)
    /\ lowered [s] g g'.
Proof.
  intros Hin. destruct (in_keys_lookup g s Hin) as [i Hi].
  eexists. split; [|split; [apply keys_g_update|]].
  - unfold done_succ, gnpred. rewrite lookup_g_update, String.eqb_refl, Hi. cbn [npred].
    destruct (npred i - 1 =? 0)%Z; reflexivity.
  - intros n. unfold gnpred. rewrite lookup_g_update. cbn [cnt].
    destruct (String.eqb_spec n s) as [->|]; [rewrite Hi; reflexivity|symmetry; apply Z.sub_0_r].
Qed.

(* an element appended when it occurs for the last time stands where filtering dedup puts it *)
Lemma filter_dedup_cons (P : string -> bool) (c : bool) ready s l :
  (if mem s l then false else P s) = c ->
  (if c then ready ++ [s] else ready) ++ filter P (dedup l) = ready ++ filter P (dedup (s :: l)).
Proof.
  intros <-. cbn [dedup]. destruct (mem s l); [reflexivity|]. cbn [filter].
  destruct (P s); [rewrite <- app_assoc|]; reflexivity.
Qed.

(* No counter goes below 0, so a node can reach 0, and become ready, only at its last occurrence in l:
   hence dedup, which keeps last occurrences. *)
Lemma done_succs_spec l : forall (g : graph) ready,
  (forall s, In s l -> In s (keys g) /\ (Z.of_nat (cnt s l) <= gnpred g s)%Z) ->
  exists g', fold_left done_succ l (g, ready)
             = (g', ready ++ filter (fun s => (gnpred g' s =? 0)%Z) (dedup l))
    /\ lowered l g g'.
Proof.
  induction l as [|s l IH]; intros g ready H; cbn [fold_left].
  - exists g. cbn [dedup filter]. rewrite app_nil_r. repeat split. intros n. symmetry. apply Z.sub_0_r.
  - destruct (H s (or_introl eq_refl)) as [Hs Hle].
    destruct (done_succ_spec g ready s Hs) as (g1 & -> & L1).
    destruct (IH g1 (if (gnpred g s - 1 =? 0)%Z then ready ++ [s] else ready)) as (g2 & -> & L2).
    { intros x Hx. destruct (H x (or_intror Hx)) as [Hxk Hxle].
      rewrite (proj1 L1), (proj2 L1). split; [exact Hxk|].
      apply Z.le_add_le_sub_l. rewrite <- Nat2Z.inj_add, <- cnt_app. exact Hxle. }
    exists g2. split; [f_equal; apply filter_dedup_cons|exact (lowered_app [s] l g g1 g2 L1 L2)].
    rewrite (proj2 L2), (proj2 L1). cbn [cnt] in Hle |- *. rewrite String.eqb_refl in Hle |- *.
    destruct (mem s l) eqn:Em.
    + (* s comes again, so this decrement cannot bring its counter to 0 *)
      apply mem_In, cnt_pos_iff in Em. symmetry. apply Z.eqb_neq. lia.
    + apply mem_false_In, cnt_zero_notin in Em. rewrite Em, Z.sub_0_r. reflexivity.
Qed.

Lemma done_succs_gsuccs l : forall st n, gsuccs (fst (fold_left done_succ l st)) n = gsuccs (fst st) n.
Proof.
  induction l as [|s l IH]; intros [g r] n; cbn [fold_left]; [reflexivity|]. rewrite IH.
  unfold done_succ. set (g' := g_update g s _).
  replace (fst _) with g' by (destruct (lookup s g') as [j|]; [destruct (npred j =? 0)%Z|]; reflexivity).
  unfold g', gsuccs. rewrite lookup_g_update. cbn [fst].
  destruct (String.eqb_spec n s) as [->|]; [destruct (lookup s g)|]; reflexivity.
Qed.

Lemma done_one_flat st p : done_one st p = fold_left done_succ (gsuccs (fst st) p) st.
Proof. unfold done_one, gsuccs. destruct (lookup p (fst st)); reflexivity. Qed.

(* TopologicalSorter.done( *group ) is one pass over all edges that leave the group *)
Lemma done_all_flat G : forall st,
  fold_left done_one G st = fold_left done_succ (flat_map (gsuccs (fst st)) G) st.
Proof.
  induction G as [|p G IH]; intros st; [reflexivity|]. cbn [fold_left flat_map].
  rewrite fold_left_app, IH, done_one_flat, (flat_map_ext _ _ (done_succs_gsuccs _ st)). reflexivity.
Qed.

(* get_ready() after prepare(): the nodes whose counter is 0, in insertion order *)
Lemma ready0_filter g : NoDup (keys g) -> ready0 g = filter (fun k => (gnpred g k =? 0)%Z) (keys g).
Proof.
  unfold ready0, keys. induction g as [|[k i] g IH]; intros Hnd; [reflexivity|].
  apply NoDup_cons_iff in Hnd. destruct Hnd as [Hk Hnd']. cbn [filter map fst snd].
  unfold gnpred at 1. cbn [lookup]. rewrite String.eqb_refl.
  rewrite (filter_ext_in _ (fun k' => (gnpred g k' =? 0)%Z) (map fst g)).
  - rewrite <- (IH Hnd'). destruct (npred i =? 0)%Z; reflexivity.
  - intros k' Hk'. unfold gnpred. cbn [lookup].
    destruct (String.eqb_spec k' k) as [->|]; [contradiction|reflexivity].
Qed.

Section Kahn.
  Variable g0 : graph.
  Let ks := keys g0.
  Hypothesis ks_nodup : NoDup ks.
  Hypothesis closed : forall p s, In s (gsuccs g0 p) -> In s ks.

  Definition undone (D : list string) : list string := filter (fun k => negb (mem k D)) ks.
  (* number of edge occurrences into n whose source is not in D *)
  Definition indeg (D : list string) (n : string) : nat := cnt n (flat_map (gsuccs g0) (undone D)).

  Hypothesis npred_ok : forall n, In n ks -> gnpred g0 n = Z.of_nat (indeg [] n).

  Lemma In_undone D k : In k (undone D) <-> In k ks /\ ~ In k D.
  Proof. unfold undone. rewrite filter_In, negb_true_iff. apply and_iff_compat_l, mem_false_In. Qed.

  Lemma indeg_mono_app L D n : indeg (L ++ D) n <= indeg D n.
  Proof using ks_nodup.
    unfold indeg, undone. generalize ks. intros l. induction l as [|k l IH]; [apply le_n|].
    cbn [filter]. rewrite mem_app. destruct (mem k L), (mem k D); cbn [orb negb flat_map]; rewrite ?cnt_app;
      [exact IH|apply (Nat.le_trans _ _ _ IH), Nat.le_add_l|exact IH|apply Nat.add_le_mono_l, IH].
  Qed.

  (* the nodes still to come are a generation G taken from them and the rest, in some order *)
  Lemma indeg_split D G n :
    NoDup (D ++ G) -> incl G ks -> indeg D n = cnt n (flat_map (gsuccs g0) G) + indeg (D ++ G) n.
  Proof.
    intros Hnd Hks. destruct (NoDup_app_elim _ _ Hnd) as (_ & HG & Hdis).
    unfold indeg. rewrite <- cnt_app, <- flat_map_app.
    apply cnt_Permutation, Permutation_flat_map, NoDup_Permutation.
    - apply NoDup_filter, ks_nodup.
    - apply NoDup_app_intro; [exact HG|apply NoDup_filter, ks_nodup|].
      intros x Hx Hc. apply In_undone in Hc. apply (proj2 Hc), in_or_app. right. exact Hx.
    - intros x. split; intros Hx.
      + apply In_undone in Hx. destruct Hx as [Hx HxD]. apply in_or_app.
        destruct (in_dec string_dec x G) as [HxG|HxG]; [left; exact HxG|right].
        apply In_undone. split; [exact Hx|]. intros Hc. apply in_app_or in Hc. destruct Hc; contradiction.
      + apply In_undone. apply in_app_or in Hx.
        destruct Hx as [Hx|Hx]; [split; [apply Hks, Hx|intros Hc; exact (Hdis x Hc Hx)]|].
        apply In_undone in Hx. destruct Hx as [Hx HxDG]. split; [exact Hx|].
        intros Hc. apply HxDG, in_or_app. left. exact Hc.
  Qed.

  Definition allpreds (D : list string) (n : string) : Prop :=
    forall p, In p ks -> In n (gsuccs g0 p) -> In p D.

  Lemma indeg_zero_iff D n : indeg D n = 0 <-> allpreds D n.
  Proof.
    unfold indeg, allpreds. rewrite cnt_zero_notin, in_flat_map. split.
    - intros H p Hp Hn. destruct (in_dec string_dec p D) as [HpD|HpD]; [exact HpD|].
      destruct H. exists p. split; [apply In_undone; split; assumption|exact Hn].
    - intros H (p & Hp & Hn). apply In_undone in Hp. exact (proj2 Hp (H p (proj1 Hp) Hn)).
  Qed.

  Lemma allpreds_mono D D' n : incl D D' -> allpreds D n -> allpreds D' n.
  Proof. intros Hi H p Hp Hn. apply Hi. exact (H p Hp Hn). Qed.

  Definition Inv (g : graph) (D : list string) : Prop :=
    keys g = ks
    /\ (forall n, gsuccs g n = gsuccs g0 n)
    /\ (forall n, In n ks -> gnpred g n = Z.of_nat (indeg D n)).

  (* the state between two decrements of one call of done, as done_succs_complete speaks of it:
     the counters are behind the in-degrees for D by the occurrences seen so far *)
  Definition Mid (g : graph) (D : list string) (seen : list string) : Prop :=
    keys g = ks
    /\ (forall n, gsuccs g n = gsuccs g0 n)
    /\ (forall n, In n ks -> gnpred g n = (Z.of_nat (indeg D n) - Z.of_nat (cnt n seen))%Z).

  (* the occurrence of s that brings its counter to 0 puts s on the ready list *)
  Lemma done_succs_complete l : forall g ready D seen,
    Mid g D seen -> (forall s, In s l -> In s ks) ->
    (forall n, cnt n (seen ++ l) <= indeg D n) ->
    forall s, In s l -> indeg D s = cnt s (seen ++ l) ->
    In s (snd (fold_left done_succ l (g, ready))).
  Proof.
    intros g ready D seen (Hk & _ & Hn) Hl Hle s Hin Heq.
    destruct (done_succs_spec l g ready) as (g' & -> & _ & Hn').
    { intros x Hx. rewrite Hk, (Hn x (Hl x Hx)). split; [exact (Hl x Hx)|].
      apply Z.le_add_le_sub_l. rewrite <- Nat2Z.inj_add, <- cnt_app. apply Nat2Z.inj_le, Hle. }
    apply in_or_app. right. apply filter_In. split; [apply dedup_In; exact Hin|].
    apply Z.eqb_eq. rewrite Hn', (Hn s (Hl s Hin)), Heq, cnt_app, Nat2Z.inj_add, Z.add_simpl_l. apply Z.sub_diag.
  Qed.

  Lemma done_all_spec g G D :
    Inv g D -> NoDup (D ++ G) -> incl G ks ->
    exists g' nr, done_all g G = (g', nr) /\ Inv g' (D ++ G) /\ NoDup nr
      /\ forall n, In n nr <-> In n ks /\ indeg (D ++ G) n = 0 /\ indeg D n <> 0.
  Proof.
    intros (Hk & Hs & Hn) Hnd Hks.
    unfold done_all. rewrite done_all_flat. cbn [fst]. rewrite (flat_map_ext _ _ Hs).
    set (L := flat_map (gsuccs g0) G).
    assert (Hsp : forall n, indeg D n = cnt n L + indeg (D ++ G) n)
      by (intros n; apply indeg_split; assumption).
    assert (HL : forall s, In s L -> In s ks).
    { intros s Hs'. apply in_flat_map in Hs'. destruct Hs' as (p & _ & Hp). exact (closed p s Hp). }
    destruct (done_succs_spec L g []) as (g' & Ed & Hk' & Hn').
    { intros s HsL. rewrite Hk, (Hn s (HL s HsL)), (Hsp s). split; [exact (HL s HsL)|apply Nat2Z.inj_le, Nat.le_add_r]. }
    assert (Hn2 : forall n, In n ks -> gnpred g' n = Z.of_nat (indeg (D ++ G) n)).
    { intros n Hnk. rewrite Hn', (Hn n Hnk), (Hsp n), Nat2Z.inj_add. apply Z.add_simpl_l. }
    exists g', (filter (fun s => (gnpred g' s =? 0)%Z) (dedup L)). split; [exact Ed|]. split; [|split].
    - split; [rewrite Hk'; exact Hk|]. split; [|exact Hn2].
      intros n. rewrite <- Hs. pose proof (done_succs_gsuccs L (g, []) n) as Hg. rewrite Ed in Hg. exact Hg.
    - apply NoDup_filter, dedup_NoDup.
    - intros n. pose proof (Hsp n) as Hspn. split.
      + intros Hin. apply filter_In in Hin. destruct Hin as [HnL E]. apply (proj1 (dedup_In n L)) in HnL.
        pose proof (HL n HnL) as Hnk. apply Z.eqb_eq in E. rewrite (Hn2 n Hnk) in E. apply (Nat2Z.inj _ 0) in E.
        split; [exact Hnk|]. split; [exact E|]. rewrite Hspn, E, Nat.add_0_r. apply Nat.neq_0_lt_0, cnt_pos_iff, HnL.
      + intros (Hnk & H1 & H2). rewrite Hspn, H1, Nat.add_0_r in H2. apply filter_In.
        split; [apply dedup_In, cnt_pos_iff, Nat.neq_0_lt_0, H2|].
        apply Z.eqb_eq. rewrite (Hn2 n Hnk), H1. reflexivity.
  Qed.

  Definition topo (L : list string) : Prop :=
    forall pre n post, L = pre ++ n :: post -> In n ks /\ allpreds pre n.

  Lemma topo_in L n : topo L -> In n L -> In n ks /\ allpreds L n.
  Proof.
    intros HT Hin. apply in_split in Hin. destruct Hin as [pre [post E]].
    destruct (HT pre n post E) as [H1 H2]. split; [exact H1|].
    apply (allpreds_mono pre); [|exact H2]. rewrite E. apply incl_appl, incl_refl.
  Qed.

  Lemma topo_app L1 L2 :
    topo L1 -> (forall n, In n L2 -> In n ks /\ allpreds L1 n) -> topo (L1 ++ L2).
  Proof.
    intros H1 H2 pre n post E.
    assert (HL2 : In n L2 -> incl L1 pre -> In n ks /\ allpreds pre n).
    { intros Hn Hi. destruct (H2 n Hn) as [Ha Hb]. split; [exact Ha|exact (allpreds_mono L1 pre n Hi Hb)]. }
    destruct (app_eq_app _ _ _ _ E) as [l [[E1 E2]|[E1 E2]]].
    - destruct l as [|m l]; cbn [app] in E2; [|injection E2 as <- _; exact (H1 pre n l E1)].
      apply HL2; [rewrite <- E2; left; reflexivity|rewrite E1, app_nil_r; apply incl_refl].
    - apply HL2; [rewrite E2; apply in_elt|rewrite E1; apply incl_appl, incl_refl].
  Qed.

  (* the loop invariant of Topo.kahn *)
  Definition K (g : graph) (ready out : list string) : Prop :=
    Inv g out /\ NoDup (out ++ ready)
    /\ (forall n, In n ready -> In n ks /\ allpreds out n) /\ topo out.

  Lemma K_in g ready out n : K g ready out -> In n (out ++ ready) -> In n ks /\ allpreds out n.
  Proof.
    intros (_ & _ & Hr & HT) Hn. apply in_app_or in Hn.
    destruct Hn as [Hn|Hn]; [exact (topo_in out n HT Hn)|exact (Hr n Hn)].
  Qed.

  Lemma K_step g G out :
    K g G out ->
    exists g' nr, done_all g G = (g', nr) /\ K g' nr (out ++ G)
      /\ forall n, In n nr <-> In n ks /\ indeg (out ++ G) n = 0 /\ indeg out n <> 0.
  Proof.
    intros HK. pose proof HK as (HI & Hnd & Hr & HT).
    destruct (done_all_spec g G out HI Hnd) as (g' & nr & E & HI' & Hndn & Hnr).
    { intros p Hp. apply (Hr p Hp). }
    exists g', nr. split; [exact E|]. split; [|exact Hnr].
    split; [exact HI'|]. split; [|split].
    - (* the next ready list is new: its nodes still had in-degree left before G went out *)
      apply NoDup_app_intro; [exact Hnd|exact Hndn|].
      intros x Hx Hc. apply Hnr in Hc. apply (K_in _ _ _ _ HK) in Hx. apply Hc, indeg_zero_iff, Hx.
    - intros n Hx. apply Hnr in Hx. split; [|apply indeg_zero_iff]; apply Hx.
    - apply topo_app; assumption.
  Qed.

  Lemma kahn_sound fuel : forall g ready out res,
    K g ready out -> kahn fuel g ready out = Some res -> NoDup res /\ topo res.
  Proof.
    induction fuel as [|f IH]; intros g [|r ready] out res HK Hk; cbn [kahn] in Hk; try discriminate.
    1,2: injection Hk as <-; destruct HK as (_ & Hnd & _ & HT); rewrite app_nil_r in Hnd; auto.
    destruct (K_step _ _ _ HK) as (g' & nr & E & HK' & _). rewrite E in Hk. exact (IH _ _ _ _ HK' Hk).
  Qed.

  (* for completeness, K plus: no node whose predecessors are all out has been forgotten *)
  Definition Kc (g : graph) (ready out : list string) : Prop :=
    K g ready out /\ forall n, In n ks -> allpreds out n -> In n (out ++ ready).

  Lemma kahn_complete fuel : forall g ready out,
    Kc g ready out -> length ks < fuel + length out ->
    exists res, kahn fuel g ready out = Some res
                /\ forall n, In n ks -> allpreds res n -> In n res.
  Proof.
    induction fuel as [|f IH]; intros g ready out [HK Hc] Hfuel.
    - (* no fuel: out already holds more names than there are nodes *)
      exfalso. pose proof HK as (_ & Hnd & _).
      assert (Hincl : incl (out ++ ready) ks) by (intros x Hx; apply (K_in _ _ _ _ HK Hx)).
      pose proof (NoDup_incl_length Hnd Hincl) as Hlen. rewrite app_length in Hlen. lia.
    - destruct ready as [|r ready].
      + exists out. split; [reflexivity|]. intros n Hn Ha. rewrite <- (app_nil_r out). auto.
      + destruct (K_step _ _ _ HK) as (g' & nr & E & HK' & Hnr). cbn [kahn]. rewrite E. apply IH.
        * split; [exact HK'|]. intros n Hn Ha. apply in_or_app. apply indeg_zero_iff in Ha.
          destruct (Nat.eq_dec (indeg out n) 0) as [Ho|Ho]; [left; apply (Hc n Hn), indeg_zero_iff, Ho|].
          right. apply Hnr. auto.
        * rewrite app_length. cbn [length]. lia.
  Qed.

  Lemma undone_nil : undone [] = ks.
  Proof.
    unfold undone. generalize ks. intros l. induction l as [|k l IH]; [reflexivity|].
    cbn [filter]. rewrite IH. reflexivity.
  Qed.

  Lemma ready0_iff n : In n (ready0 g0) <-> In n ks /\ allpreds [] n.
  Proof.
    rewrite (ready0_filter g0 ks_nodup). split.
    - intros H. apply filter_In in H. destruct H as [Hn H]. apply Z.eqb_eq in H. rewrite (npred_ok n Hn) in H.
      split; [exact Hn|apply indeg_zero_iff, (Nat2Z.inj _ 0), H].
    - intros [Hn H]. apply indeg_zero_iff in H. apply filter_In. split; [exact Hn|].
      rewrite (npred_ok n Hn), H. reflexivity.
  Qed.

  Lemma Kc_init : Kc g0 (ready0 g0) [].
  Proof.
    split; [|intros n Hn Ha; apply ready0_iff; auto].
    split; [split; [reflexivity|split; [reflexivity|exact npred_ok]]|].
    split; [rewrite (ready0_filter g0 ks_nodup); apply NoDup_filter, ks_nodup|].
    split; [apply ready0_iff|intros [|] ? ? ?; discriminate].
  Qed.

  (* graphlib's static_order: a complete order of the nodes in which every edge goes forward *)
  Theorem static_order_sound res :
    static_order g0 = Some res ->
    NoDup res /\ (forall n, In n res <-> In n ks)
    /\ forall pre n post, res = pre ++ n :: post ->
         forall p, In p ks -> In n (gsuccs g0 p) -> In p pre.
  Proof.
    unfold static_order. intros H.
    destruct (kahn (S (length g0)) g0 (ready0 g0) []) as [out|] eqn:Ek; [|discriminate].
    destruct (Nat.eqb_spec (length out) (length g0)) as [El|]; [|discriminate].
    injection H as <-.
    destruct (kahn_sound _ _ _ _ _ (proj1 Kc_init) Ek) as [Hnd HT].
    assert (Hincl : incl out ks) by (intros x Hx; apply (topo_in out x HT Hx)).
    split; [exact Hnd|]. split.
    - intros n. split; [apply Hincl|].
      apply (NoDup_length_incl Hnd); [|exact Hincl].
      unfold ks, keys. rewrite map_length, El. apply le_n.
    - intros pre n post E. apply (HT pre n post E).
  Qed.

  (* the converse: when the edges admit a ranking (the graph is acyclic) graphlib never raises CycleError *)
  Theorem static_order_complete (rank : string -> nat) :
    (forall p n, In p ks -> In n (gsuccs g0 p) -> rank p < rank n) ->
    exists res, static_order g0 = Some res.
  Proof.
    intros Hrank.
    assert (Hlen : length ks = length g0) by apply map_length.
    destruct (kahn_complete (S (length g0)) g0 (ready0 g0) [] Kc_init) as [out [Ek Hall]];
      [rewrite Hlen, Nat.add_0_r; apply Nat.lt_succ_diag_r|].
    destruct (kahn_sound _ _ _ _ _ (proj1 Kc_init) Ek) as [Hnd HT].
    (* every node is out, by induction on its rank *)
    assert (Hincl' : incl ks out).
    { intros n. induction n as [n IHn] using (induction_ltof1 _ rank). intros Hn.
      apply (Hall n Hn). intros p Hp Hpn. exact (IHn p (Hrank p n Hp Hpn) Hp). }
    assert (Hincl : incl out ks) by (intros x Hx; apply (topo_in out x HT Hx)).
    unfold static_order. rewrite Ek, <- Hlen.
    rewrite (Nat.le_antisymm _ _ (NoDup_incl_length Hnd Hincl) (NoDup_incl_length ks_nodup Hincl')).
    rewrite Nat.eqb_refl. eauto.
  Qed.
End Kahn.

Definition total_in (g : graph) (n : string) : nat := cnt n (flat_map (gsuccs g) (keys g)).

(* What holds of a graph while TopologicalSorter.add builds it; with nothing pending (e = 0) its three parts are the
   hypotheses of Section Kahn (Good_npred_ok).
   [e n]: predecessors of n already counted in npred whose edge has not been recorded yet *)
Definition Good (e : string -> nat) (g : graph) : Prop :=
  NoDup (keys g)
  /\ (forall p s, In s (gsuccs g p) -> In s (keys g))
  /\ (forall n, In n (keys g) -> gnpred g n = Z.of_nat (total_in g n + e n)).

Lemma Good_ext e e' g : (forall n, e n = e' n) -> Good e g -> Good e' g.
Proof.
  intros H (H1 & H2 & H3). split; [exact H1|]. split; [exact H2|].
  intros n Hn. rewrite <- H. exact (H3 n Hn).
Qed.

(* What add does to a node: info = _get_nodeinfo(n), then a write to info *)
Definition g_edit (g : graph) (n : string) (f : ninfo -> ninfo) : graph := g_update (g_touch g n) n f.

Lemma keys_edit g n f : keys (g_edit g n f) = keys g ++ (if mem n (keys g) then [] else [n]).
Proof.
  unfold g_edit, g_touch. rewrite keys_g_update. destruct (mem n (keys g)) eqn:E.
  - apply mem_In, in_keys_lookup in E. destruct E as [i ->]. symmetry. apply app_nil_r.
  - apply mem_false_In, lookup_None_keys in E. rewrite E. apply map_app.
Qed.

Lemma In_keys_edit g n f k : In k (keys (g_edit g n f)) <-> In k (keys g) \/ k = n.
Proof.
  rewrite keys_edit, in_app_iff. destruct (mem n (keys g)) eqn:E; cbn [In].
  - apply mem_In in E. split; [intros [H|[]]; auto|intros [H| ->]; auto].
  - split; [intros [H|[H|[]]]; auto|intros [H|H]; auto].
Qed.

Lemma lookup_touch g n k :
  lookup k (g_touch g n) =
  match lookup k g with
  | Some i => Some i
  | None => if String.eqb k n then Some {| npred := 0; succs := [] |} else None
  end.
Proof.
  unfold g_touch. destruct (lookup n g) eqn:E; [|rewrite lookup_app; reflexivity].
  destruct (lookup k g) eqn:Ek; [reflexivity|].
  destruct (String.eqb_spec k n) as [->|]; [congruence|reflexivity].
Qed.

Lemma info_edit g n f k : info (g_edit g n f) k = if String.eqb k n then f (info g k) else info g k.
Proof.
  unfold g_edit, info. rewrite lookup_g_update, !lookup_touch, String.eqb_refl.
  destruct (String.eqb k n) eqn:E; [apply String.eqb_eq in E; subst k|rewrite ?E];
    destruct (lookup _ g); reflexivity.
Qed.

Lemma total_zero_notin g n :
  (forall p s, In s (gsuccs g p) -> In s (keys g)) -> ~ In n (keys g) -> total_in g n = 0.
Proof.
  intros Hc Hn. unfold total_in. apply cnt_zero_notin. intros H.
  apply in_flat_map in H. destruct H as [p [_ Hp]]. apply Hn. exact (Hc p n Hp).
Qed.

(* Both writes of TopologicalSorter.add to a node's info (npredecessors += len(predecessors);
   successors.append(node)) add dn to the counter of n and extra to its successor list.  The
   graph stays good when the pending counts e change by as much as the two sides of
   npred = total_in + e have moved apart; a node that is new must have nothing pending. *)
Lemma edit_good e e' g n f dn extra :
  (forall i, npred (f i) = (npred i + Z.of_nat dn)%Z /\ succs (f i) = succs i ++ extra) ->
  e' n = 0 \/ In n (keys g) -> incl extra (keys g) ->
  (forall k, e' k + (if String.eqb k n then dn else 0) = e k + cnt k extra) ->
  Good e' g -> Good e (g_edit g n f).
Proof.
  intros Hf Hn Hex He (H1 & H2 & H3).
  set (g' := g_edit g n f).
  assert (Hs : forall k, gsuccs g' k = if String.eqb k n then gsuccs g k ++ extra else gsuccs g k).
  { intros k. unfold g'. rewrite !gsuccs_info, info_edit. destruct (String.eqb k n); [apply Hf|reflexivity]. }
  assert (Hp : forall k, gnpred g' k = (gnpred g k + Z.of_nat (if String.eqb k n then dn else 0))%Z).
  { intros k. unfold g'. rewrite !gnpred_info, info_edit. destruct (String.eqb k n); [apply Hf|symmetry; apply Z.add_0_r]. }
  pose proof (keys_edit g n f) as Hk. fold g' in Hk.
  (* the node that is new, if any, has no edges and nothing pending *)
  set (new := if mem n (keys g) then [] else [n]) in Hk.
  assert (NoDup new /\ flat_map (gsuccs g) new = [] /\ forall k, In k new -> ~ In k (keys g) /\ e' k = 0)
    as (Hnew1 & Hnew2 & Hnew).
  { unfold new. destruct (mem n (keys g)) eqn:E; [split; [constructor|split; [reflexivity|intros k []]]|].
    apply mem_false_In in E. split; [repeat constructor; intros []|]. split.
    - cbn [flat_map]. rewrite gsuccs_info, (info_notin g n E). reflexivity.
    - intros k [<-|[]]. split; [exact E|]. destruct Hn; [assumption|contradiction]. }
  assert (Hnd : NoDup (keys g')).
  { rewrite Hk. apply NoDup_app_intro; [exact H1|exact Hnew1|intros x Hx Hc; apply (Hnew x Hc), Hx]. }
  assert (Ht : forall k, total_in g' k = total_in g k + cnt k extra).
  { intros k. unfold total_in.
    rewrite (cnt_flat_map_append (gsuccs g) (gsuccs g') n k extra (keys g') Hnd Hs).
    rewrite (proj2 (mem_In n (keys g'))) by (apply In_keys_edit; auto).
    rewrite Hk, flat_map_app, Hnew2, app_nil_r. reflexivity. }
  split; [exact Hnd|]. split.
  - intros q s Hin. rewrite Hk. apply in_or_app. left. rewrite Hs in Hin.
    destruct (String.eqb q n); [apply in_app_or in Hin; destruct Hin as [Hin|Hin]; [|exact (Hex s Hin)]|];
      exact (H2 q s Hin).
  - intros k Hkk. rewrite Hk in Hkk. apply in_app_or in Hkk.
    assert (H3' : gnpred g k = Z.of_nat (total_in g k + e' k)).
    { destruct Hkk as [Hkk|Hkk]; [exact (H3 k Hkk)|]. destruct (Hnew k Hkk) as [Hkg ->].
      rewrite gnpred_info, (info_notin g k Hkg), (total_zero_notin g k H2 Hkg). reflexivity. }
    rewrite Hp, Ht, H3', <- Nat2Z.inj_add. apply f_equal. specialize (He k). lia.
Qed.

(* for pred in predecessors: pred_info = _get_nodeinfo(pred); pred_info.successors.append(node) *)
Definition add_pred (node : string) (g : graph) (p : string) : graph :=
  g_edit g p (fun i => {| npred := npred i; succs := succs i ++ [node] |}).

Lemma g_add_eq g node preds :
  g_add g node preds =
  fold_left (add_pred node) preds
    (g_edit g node (fun i => {| npred := npred i + Z.of_nat (length preds); succs := succs i |})).
Proof. reflexivity. Qed.

Lemma gsuccs_add_pred_In node q g p n :
  In n (gsuccs (add_pred node g p) q) <-> In n (gsuccs g q) \/ (n = node /\ q = p).
Proof.
  unfold add_pred. rewrite !gsuccs_info, info_edit. destruct (String.eqb_spec q p) as [->|Hne]; cbn [succs].
  - rewrite in_app_iff. cbn [In]. split; [intros [H|[H|[]]]; auto|intros [H|[H _]]; auto].
  - split; [auto|intros [H|[_ H]]; [exact H|contradiction]].
Qed.

Lemma add_preds_good node : forall preds g,
  In node (keys g) ->
  Good (fun k => if String.eqb k node then length preds else 0) g ->
  Good (fun _ => 0) (fold_left (add_pred node) preds g).
Proof.
  induction preds as [|p preds IH]; intros g Hnode HG; simpl.
  - apply (Good_ext _ _ g) with (2 := HG). intros n. destruct (String.eqb n node); reflexivity.
  - apply IH.
    + apply In_keys_edit. left. exact Hnode.
    + apply (edit_good _ (fun k => if String.eqb k node then S (length preds) else 0) _ _ _ 0 [node]).
      * intros i. cbn [npred succs]. split; [symmetry; apply Z.add_0_r|reflexivity].
      * destruct (String.eqb_spec p node) as [->|Hne]; [right; exact Hnode|left; reflexivity].
      * intros x [<-|[]]. exact Hnode.
      * intros k. cbn [cnt]. destruct (String.eqb k node), (String.eqb k p); lia.
      * exact HG.
Qed.

Lemma g_add_good g node preds : Good (fun _ => 0) g -> Good (fun _ => 0) (g_add g node preds).
Proof.
  intros HG. rewrite g_add_eq. apply add_preds_good.
  - apply In_keys_edit. right. reflexivity.
  - apply (edit_good _ (fun _ => 0) _ _ _ (length preds) []).
    + intros i. cbn [npred succs]. rewrite app_nil_r. auto.
    + left. reflexivity.
    + intros x [].
    + intros k. symmetry. apply Nat.add_0_r.
    + exact HG.
Qed.

Lemma keys_g_add g node preds k :
  In k (keys (g_add g node preds)) <-> In k (keys g) \/ k = node \/ In k preds.
Proof.
  rewrite g_add_eq, (fold_left_obs (add_pred node) (fun g k => In k (keys g)) (fun p k => k = p)
                       (fun g p => In_keys_edit g p _)), In_keys_edit.
  split; [intros [[H|H]|(b & Hb & ->)]; auto|intros [H|[H|H]]; eauto].
Qed.

Lemma gsuccs_g_add g node preds q n :
  In n (gsuccs (g_add g node preds) q) <-> In n (gsuccs g q) \/ (n = node /\ In q preds).
Proof.
  rewrite g_add_eq, (fold_left_obs _ (fun g n => In n (gsuccs g q)) (fun p n => n = node /\ q = p)
                       (gsuccs_add_pred_In node q)), !gsuccs_info, info_edit.
  replace (succs (if String.eqb q node then _ else _)) with (succs (info g q))
    by (destruct (String.eqb q node); reflexivity).
  split; [intros [H|(p & Hp & -> & ->)]; auto|intros [H|[-> H]]; eauto].
Qed.

(* sorter = TopologicalSorter(); for n in names: sorter.add(n, *deps(n)) *)
Definition build (dp : string -> list string) (names : list string) (g : graph) : graph :=
  fold_left (fun g n => g_add g n (dp n)) names g.

Lemma build_cons dp m names g : build dp (m :: names) g = build dp names (g_add g m (dp m)).
Proof. reflexivity. Qed.

Lemma build_good dp : forall names g, Good (fun _ => 0) g -> Good (fun _ => 0) (build dp names g).
Proof.
  induction names as [|n names IH]; intros g HG; [exact HG|].
  rewrite build_cons. apply IH. apply g_add_good. exact HG.
Qed.

Lemma keys_build dp names g k :
  In k (keys (build dp names g)) <-> In k (keys g) \/ exists m, In m names /\ (k = m \/ In k (dp m)).
Proof.
  apply (fold_left_obs _ (fun g k => In k (keys g)) (fun m k => k = m \/ In k (dp m))).
  intros a m x. apply keys_g_add.
Qed.

Lemma gsuccs_build dp names g q n :
  In n (gsuccs (build dp names g) q) <-> In n (gsuccs g q) \/ exists m, In m names /\ n = m /\ In q (dp m).
Proof.
  apply (fold_left_obs _ (fun g n => In n (gsuccs g q)) (fun m n => n = m /\ In q (dp m))).
  intros a m x. apply gsuccs_g_add.
Qed.

Lemma Good_nil : Good (fun _ => 0) [].
Proof.
  split; [constructor|]. split; [intros p s []|intros n []].
Qed.

Lemma Good_npred_ok g :
  Good (fun _ => 0) g -> forall n, In n (keys g) -> gnpred g n = Z.of_nat (indeg g [] n).
Proof.
  intros (_ & _ & H3) n Hn. rewrite (H3 n Hn). unfold indeg, total_in.
  rewrite undone_nil, Nat.add_0_r. reflexivity.
Qed.

Theorem build_order_sound dp names ord :
  static_order (build dp names []) = Some ord ->
  NoDup ord
  /\ (forall n, In n names -> In n ord)
  /\ (forall pre n post, ord = pre ++ n :: post -> In n names ->
        forall d, In d (dp n) -> In d pre).
Proof.
  intros H. pose proof (build_good dp names [] Good_nil) as HG.
  destruct (static_order_sound _ (proj1 HG) (proj1 (proj2 HG)) (Good_npred_ok _ HG) ord H) as (Ha & Hb & Hc).
  split; [exact Ha|]. split.
  - intros n Hn. apply Hb, keys_build. right. exists n. auto.
  - intros pre n post E Hn d Hd. apply (Hc pre n post E d).
    + apply keys_build. right. exists n. auto.
    + apply gsuccs_build. right. exists n. auto.
Qed.

(* the converse for graphs built by add: dependencies that admit a ranking are always ordered *)
Theorem build_order_complete dp names (rank : string -> nat) :
  (forall n d, In n names -> In d (dp n) -> rank d < rank n) ->
  exists ord, static_order (build dp names []) = Some ord.
Proof.
  intros Hrank. pose proof (build_good dp names [] Good_nil) as HG.
  apply (static_order_complete _ (proj1 HG) (proj1 (proj2 HG)) (Good_npred_ok _ HG) rank).
  intros p n _ Hn. apply gsuccs_build in Hn. destruct Hn as [[]|(m & Hm & -> & Hd)].
  exact (Hrank m p Hm Hd).
Qed.

(* graphlib raises CycleError exactly for the dependency relations without a ranking *)
Theorem build_order_iff_ranked dp names :
  (exists ord, static_order (build dp names []) = Some ord)
  <-> exists rank : string -> nat, forall n d, In n names -> In d (dp n) -> rank d < rank n.
Proof.
  split.
  - intros [ord H]. destruct (build_order_sound dp names ord H) as (Hnd & Hall & Hpre).
    exists (pos ord). intros n d Hn Hd.
    destruct (in_split n ord (Hall n Hn)) as [pre [post E]].
    exact (pos_lt ord pre post n d Hnd E (Hpre pre n post E Hn d Hd)).
  - intros [rank Hr]. exact (build_order_complete dp names rank Hr).
Qed.

(* a node that depends on itself makes static_order fail (graphlib.CycleError) *)
Corollary build_order_no_self_dep dp names ord n :
  static_order (build dp names []) = Some ord -> In n names -> ~ In n (dp n).
Proof.
  intros H Hn Hd.
  destruct (proj1 (build_order_iff_ranked dp names) (ex_intro _ ord H)) as [rank Hr].
  exact (Nat.lt_irrefl _ (Hr n n Hn Hd)).
Qed.
